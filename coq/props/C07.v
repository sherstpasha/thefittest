(* C07 — real-coded DE family: every candidate stays inside the search box.
   Statements; each is a theorem of theories/DEOpsProofs.v, CodeEqC07.v or CodeEqNewIndivid.v, or follows from those in a line
   or two; strategy pool regenerated in gen/GenDEPool.v. *)
From Coq Require Import String.
From TF Require Import Base RandomPrims DEOps DEOpsProofs.
From TFG Require Import GenDEPool.
Open Scope Q_scope.

Theorem C07_clamp_in_box : forall a l r, box_ok l r -> length a = length l -> in_box l r (bounds_control a l r).
Proof. exact clamp_in_box. Qed.
Print Assumptions C07_clamp_in_box.

(* boundary repair changes only coordinates that were outside the box *)
Theorem C07_clamp_minimal : forall a l r i, (i < length a)%nat ->
  vnth l i <= vnth a i -> vnth a i <= vnth r i -> vnth (bounds_control a l r) i = vnth a i.
Proof. exact clamp_minimal. Qed.
Print Assumptions C07_clamp_minimal.

Theorem C07_mean_in_box : forall a parent l r, length a = length l -> in_box l r parent ->
  in_box l r (bounds_control_mean a parent l r).
Proof. exact mean_in_box. Qed.
Print Assumptions C07_mean_in_box.

Theorem C07_mean_minimal : forall a parent l r i, (i < length a)%nat ->
  vnth l i <= vnth a i -> vnth a i <= vnth r i -> vnth (bounds_control_mean a parent l r) i = vnth a i.
Proof. exact mean_minimal. Qed.
Print Assumptions C07_mean_minimal.

(* the code before the repair: SHADE's (border + offending value)/2 can stay outside the box *)
Theorem C07_bounds_mean_old_refuted :
  exists a l r, box_ok l r /\ length a = length l /\ ~ in_box l r (bounds_control_mean_old a l r).
Proof.
  exists [-10 # 1], [0], [1]. split; [|split].
  - split; [reflexivity|]. intros i Hi. simpl in Hi. assert (i = 0)%nat by lia. subst. cbn. lra.
  - reflexivity.
  - intros (_ & H). specialize (H 0%nat ltac:(simpl; lia)). cbn in H. destruct H as (H & _).
    unfold Qle in H. cbn in H. lia.
Qed.
Print Assumptions C07_bounds_mean_old_refuted.

(* trial = at least one coordinate from the donor, every other from donor or parent *)
Theorem C07_binomial_structure : forall individ mutant CR ds child ds',
  valid_draws ds -> (0 < length individ)%nat ->
  binomial individ mutant CR ds = Some (child, ds') ->
  length child = length individ /\
  exists j, (j < length individ)%nat /\ vnth child j = vnth mutant j /\
    forall i, (i < length individ)%nat -> vnth child i = vnth mutant i \/ vnth child i = vnth individ i.
Proof. rewrite binomial_is_gen. exact (RandomPrimsProofs2.binomial_gen_structure 0). Qed.
Print Assumptions C07_binomial_structure.

(* donors: pairwise distinct in-range population members combined by the strategy's formula *)
Theorem C07_donor_formula : forall code cur best pop F ds d ds',
  valid_draws ds -> de_mutation code cur best pop F ds = Some (d, ds') ->
  exists rs, length rs = n_indices code /\ NoDup rs /\
    Forall (fun v => (0 <= v < Z.of_nat (length pop))%Z) rs /\ d = donor_of code cur best pop F rs.
Proof. exact donor_formula. Qed.
Print Assumptions C07_donor_formula.

Theorem C07_donor_coordinates : forall cur best pop F rs i,
  let p k := row_of pop (idx rs k) in
  (i < length best)%nat -> (i < length cur)%nat ->
  (forall k, (i < length (p k))%nat) ->
  vnth (donor_of 0 cur best pop F rs) i = vnth best i + F * (vnth (p 0%nat) i - vnth (p 1%nat) i) /\
  vnth (donor_of 1 cur best pop F rs) i = vnth (p 2%nat) i + F * (vnth (p 0%nat) i - vnth (p 1%nat) i) /\
  vnth (donor_of 2 cur best pop F rs) i =
    vnth (p 0%nat) i + F * (vnth best i - vnth (p 0%nat) i) + F * (vnth (p 1%nat) i - vnth (p 2%nat) i) /\
  vnth (donor_of 3 cur best pop F rs) i =
    vnth cur i + F * (vnth best i - vnth cur i) + F * (vnth (p 0%nat) i - vnth (p 1%nat) i) /\
  vnth (donor_of 4 cur best pop F rs) i =
    vnth best i + F * (vnth (p 0%nat) i - vnth (p 1%nat) i) + F * (vnth (p 2%nat) i - vnth (p 3%nat) i) /\
  vnth (donor_of 5 cur best pop F rs) i =
    vnth (p 4%nat) i + F * (vnth (p 0%nat) i - vnth (p 1%nat) i) + F * (vnth (p 2%nat) i - vnth (p 3%nat) i).
Proof. exact donor_coordinates. Qed.
Print Assumptions C07_donor_coordinates.

(* every candidate handed to the objective is inside the box, whatever the donor, F, CR, objective *)
Theorem C07_trial_in_box : forall code cur best pop F CR l r ds t ds',
  box_ok l r -> length cur = length l ->
  de_new_individ code cur best pop F CR l r ds = Some (t, ds') -> in_box l r t.
Proof. intros code cur best pop F CR l r ds t ds'. exact (trial_in_box (de_mutation code cur best pop F) cur CR l r ds t ds'). Qed.
Print Assumptions C07_trial_in_box.

Theorem C07_trial_in_box_shade : forall cur pop pbest F CR archive l r ds t ds',
  in_box l r cur ->
  shade_new_individ cur pop pbest F CR archive l r ds = Some (t, ds') -> in_box l r t.
Proof. exact shade_trial_in_box. Qed.
Print Assumptions C07_trial_in_box_shade.

(* every population member of every generation: a generation = any trials in the box (C07_trial_in_box and
   C07_trial_in_box_shade show that the optimizers' trials are), greedy replacement, optional overwrite of the last
   slot by any vector in the box *)
Theorem C07_run_in_box : forall l r pop pop',
  de_run l r pop pop' -> Forall (in_box l r) pop -> Forall (in_box l r) pop'.
Proof. exact run_in_box. Qed.
Print Assumptions C07_run_in_box.

(* wiring: the strategy pool extracted from the current source binds each name to the same-named function *)
Theorem C07_pool_named :
  forallb (fun e => String.eqb (fst e) (snd e)) de_mutation_pool = true /\
  map fst de_mutation_pool =
    ["best_1"; "rand_1"; "current_to_best_1"; "rand_to_best1"; "best_2"; "rand_2"]%string.
Proof. vm_compute. auto. Qed.
Print Assumptions C07_pool_named.

Example C07_nonvacuous :
  bounds_control [-3; 1 # 2; 7] [0; 0; 0] [1; 1; 1] = [0; 1 # 2; 1] /\
  in_box [0; 0; 0] [1; 1; 1] (bounds_control_mean [-3; 1 # 2; 7] [1 # 2; 1 # 2; 1 # 2] [0; 0; 0] [1; 1; 1]).
Proof.
  split; [vm_compute; reflexivity|]. apply mean_in_box; [reflexivity|].
  split; [reflexivity|]. intros i Hi. simpl in Hi.
  destruct i as [|[|[|i]]]; try lia; cbn; split; unfold Qle; cbn; lia.
Qed.
Print Assumptions C07_nonvacuous.

(* The tie to the source.  gen/GenCode.v is regenerated on every run from the bodies of bounds_control
   (optimizers/_differentialevolution.py), bounds_control_mean (optimizers/_shade.py), binomial
   (utils/crossovers.py) and the DE strategies (utils/mutations.py) by harness/translate_code.py (semantics of
   the subset: theories/Py.v).  The models above are EQUAL to the generated definitions. *)
From TF Require Import Py CodeEqC07.
From TFG Require Import GenCode.

Theorem C07_code_bounds_control : forall a l r, py_bounds_control a l r = bounds_control a l r.
Proof. exact code_bounds_control. Qed.
Print Assumptions C07_code_bounds_control.

Theorem C07_code_bounds_control_mean : forall a parent l r,
  py_bounds_control_mean a parent l r = bounds_control_mean a parent l r.
Proof. exact code_bounds_control_mean. Qed.
Print Assumptions C07_code_bounds_control_mean.

Theorem C07_code_binomial : forall individ mutant CR ds, py_binomial individ mutant CR ds = binomial individ mutant CR ds.
Proof. exact code_binomial. Qed.
Print Assumptions C07_code_binomial.

Theorem C07_code_best_1 : forall cur best pop F ds,
  valid_draws ds -> (2 <= length pop)%nat -> uniform_rows (length best) pop -> length cur = length best ->
  py_best_1 cur best pop F ds = de_mutation 0 cur best pop F ds.
Proof. exact code_best_1. Qed.
Print Assumptions C07_code_best_1.

Theorem C07_code_rand_1 : forall cur best pop F ds,
  valid_draws ds -> (3 <= length pop)%nat -> uniform_rows (length best) pop -> length cur = length best ->
  py_rand_1 cur best pop F ds = de_mutation 1 cur best pop F ds.
Proof. exact code_rand_1. Qed.
Print Assumptions C07_code_rand_1.

Theorem C07_code_rand_to_best1 : forall cur best pop F ds,
  valid_draws ds -> (3 <= length pop)%nat -> uniform_rows (length best) pop -> length cur = length best ->
  py_rand_to_best1 cur best pop F ds = de_mutation 2 cur best pop F ds.
Proof. exact code_rand_to_best1. Qed.
Print Assumptions C07_code_rand_to_best1.

Theorem C07_code_current_to_best_1 : forall cur best pop F ds,
  valid_draws ds -> (2 <= length pop)%nat -> uniform_rows (length best) pop -> length cur = length best ->
  py_current_to_best_1 cur best pop F ds = de_mutation 3 cur best pop F ds.
Proof. exact code_current_to_best_1. Qed.
Print Assumptions C07_code_current_to_best_1.

Theorem C07_code_best_2 : forall cur best pop F ds,
  valid_draws ds -> (4 <= length pop)%nat -> uniform_rows (length best) pop -> length cur = length best ->
  py_best_2 cur best pop F ds = de_mutation 4 cur best pop F ds.
Proof. exact code_best_2. Qed.
Print Assumptions C07_code_best_2.

Theorem C07_code_rand_2 : forall cur best pop F ds,
  valid_draws ds -> (5 <= length pop)%nat -> uniform_rows (length best) pop -> length cur = length best ->
  py_rand_2 cur best pop F ds = de_mutation 5 cur best pop F ds.
Proof. exact code_rand_2. Qed.
Print Assumptions C07_code_rand_2.

Theorem C07_src_clamp_in_box : forall a l r, box_ok l r -> length a = length l -> in_box l r (py_bounds_control a l r).
Proof. intros a l r Hb Hl. rewrite code_bounds_control. now apply clamp_in_box. Qed.
Print Assumptions C07_src_clamp_in_box.

Theorem C07_src_mean_in_box : forall a parent l r, length a = length l -> in_box l r parent ->
  in_box l r (py_bounds_control_mean a parent l r).
Proof. intros a parent l r Hl Hp. rewrite code_bounds_control_mean. now apply mean_in_box. Qed.
Print Assumptions C07_src_mean_in_box.

Theorem C07_src_binomial : forall individ mutant CR ds child ds',
  valid_draws ds -> (0 < length individ)%nat ->
  py_binomial individ mutant CR ds = Some (child, ds') ->
  length child = length individ /\
  exists j, (j < length individ)%nat /\ vnth child j = vnth mutant j /\
    forall i, (i < length individ)%nat -> vnth child i = vnth mutant i \/ vnth child i = vnth individ i.
Proof. intros individ mutant CR ds child ds' Hv Hl H. rewrite code_binomial in H. exact (C07_binomial_structure individ mutant CR ds child ds' Hv Hl H). Qed.
Print Assumptions C07_src_binomial.

Theorem C07_src_best_1_donor : forall cur best pop F ds d ds',
  valid_draws ds -> (2 <= length pop)%nat -> uniform_rows (length best) pop -> length cur = length best ->
  py_best_1 cur best pop F ds = Some (d, ds') ->
  exists rs, length rs = 2%nat /\ NoDup rs /\
    Forall (fun v => (0 <= v < Z.of_nat (length pop))%Z) rs /\ d = donor_of 0 cur best pop F rs.
Proof. intros cur best pop F ds d ds' Hv Hk Hu Hc H. rewrite code_best_1 in H by auto. exact (donor_formula 0 cur best pop F ds d ds' Hv H). Qed.
Print Assumptions C07_src_best_1_donor.

Theorem C07_code_current_to_pbest : forall cur pop pbest F archive ds,
  valid_draws ds -> (0 < length pop)%nat ->
  uniform_rows (length cur) pop -> uniform_rows (length cur) archive ->
  Forall (fun v => (0 <= v < Z.of_nat (length pop))%Z) pbest ->
  py_current_to_pbest_1_archive_p_min cur pop pbest F archive ds = current_to_pbest cur pop pbest F archive ds.
Proof. exact code_current_to_pbest. Qed.
Print Assumptions C07_code_current_to_pbest.

Theorem C07_src_current_to_pbest_shape : forall cur pop pbest F archive ds d ds',
  valid_draws ds -> (0 < length pop)%nat ->
  uniform_rows (length cur) pop -> uniform_rows (length cur) archive ->
  Forall (fun v => (0 <= v < Z.of_nat (length pop))%Z) pbest ->
  py_current_to_pbest_1_archive_p_min cur pop pbest F archive ds = Some (d, ds') -> length d = length cur.
Proof. intros cur pop pbest F archive ds d ds' Hv Hp Hu Hua Hpb H. rewrite code_current_to_pbest in H by assumption. exact (current_to_pbest_length _ _ _ _ _ _ _ _ H). Qed.
Print Assumptions C07_src_current_to_pbest_shape.

(* The trial vector of one individual, as the optimizers' own methods compose it.  SHADE._get_new_individ_g and
   DifferentialEvolution._get_new_individ_g (inherited by jDE) are translated on every run (methods: reads of self become
   parameters; the strategy function looked up in the pool becomes a function parameter) and proved to be: strategy, then
   binomial crossover with the parent, then the repair — with exactly these arguments. *)
From TF Require Import CodeEqNewIndivid.

Theorem C07_code_SHADE_get_new_individ_g : forall pop pbest archive l r cur F CR ds,
  valid_draws ds -> (0 < length pop)%nat ->
  uniform_rows (length cur) pop -> uniform_rows (length cur) archive ->
  Forall (fun v => (0 <= v < Z.of_nat (length pop))%Z) pbest ->
  py_SHADE_get_new_individ_g pop pbest archive l r cur F CR ds = shade_new_individ cur pop pbest F CR archive l r ds.
Proof. exact code_SHADE_get_new_individ_g. Qed.
Print Assumptions C07_code_SHADE_get_new_individ_g.

Theorem C07_code_DE_get_new_individ_g : forall (mf : list Q -> list Q -> list (list Q) -> Q -> M (list Q)) (code : nat) best pop l r cur F CR ds,
  mf cur best pop F ds = de_mutation code cur best pop F ds ->
  py_DE_get_new_individ_g mf best pop l r cur F CR ds = de_new_individ code cur best pop F CR l r ds.
Proof. exact code_DE_get_new_individ_g_strategy. Qed.
Print Assumptions C07_code_DE_get_new_individ_g.

Theorem C07_code_DE_new_individ_best_1 : forall best pop l r cur F CR ds,
  valid_draws ds -> (2 <= length pop)%nat -> uniform_rows (length best) pop -> length cur = length best ->
  py_DE_get_new_individ_g py_best_1 best pop l r cur F CR ds = de_new_individ 0 cur best pop F CR l r ds.
Proof. intros. apply code_DE_get_new_individ_g_strategy. now apply code_best_1. Qed.
Print Assumptions C07_code_DE_new_individ_best_1.

(* ... hence, about the optimizers' own methods: the trial vector DifferentialEvolution / jDE hand to the objective is inside the box for
   ANY strategy function, F and CR; SHADE's is inside the box whenever the parent is *)
Theorem C07_src_DE_trial_in_box : forall (mf : list Q -> list Q -> list (list Q) -> Q -> M (list Q)) best pop l r cur F CR ds t ds',
  box_ok l r -> length cur = length l ->
  py_DE_get_new_individ_g mf best pop l r cur F CR ds = Some (t, ds') -> in_box l r t.
Proof. intros mf best pop l r cur F CR ds t ds' Hb Hc H. rewrite code_DE_get_new_individ_g in H. exact (trial_in_box _ cur CR l r ds t ds' Hb Hc H). Qed.
Print Assumptions C07_src_DE_trial_in_box.

Theorem C07_src_SHADE_trial_in_box : forall pop pbest archive l r cur F CR ds t ds',
  valid_draws ds -> (0 < length pop)%nat ->
  uniform_rows (length cur) pop -> uniform_rows (length cur) archive ->
  Forall (fun v => (0 <= v < Z.of_nat (length pop))%Z) pbest ->
  in_box l r cur ->
  py_SHADE_get_new_individ_g pop pbest archive l r cur F CR ds = Some (t, ds') -> in_box l r t.
Proof. intros pop pbest archive l r cur F CR ds t ds' Hv Hp Hu Ha Hpb Hc H. rewrite code_SHADE_get_new_individ_g in H by assumption. exact (shade_trial_in_box _ _ _ _ _ _ _ _ _ _ _ Hc H). Qed.
Print Assumptions C07_src_SHADE_trial_in_box.
