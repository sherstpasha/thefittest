(* C13 — every network genotype decodes to a valid feed-forward network.
   The longer proofs are in theories/NetProofs.v, NetProofs2.v, NetOrderProofs.v,
   NetMLPProofs.v, NetMLPProofs2.v.  Models: theories/Net.v, NetAlgebra.v, NetOrder.v.

   Valid (NetAlgebra.v): id sets disjoint and duplicate free; connections unique; a rank (0 on
   inputs, layer index + 1 on hidden nodes, last on outputs) strictly increases along every
   connection, sources are inputs/hidden, targets hidden/outputs (hence acyclic, forward only);
   every hidden and output node has an incoming connection, every hidden node an outgoing one;
   one weight per connection; an activation code exactly for the hidden and output nodes.       *)
From TF Require Import Base Net NetAlgebra NetOrder NetProofs NetProofs2 NetMLPProofs NetOrderProofs
     NetMLPProofs2.
Local Open Scope nat_scope.

(* the mutual recursion Net.__add__ <-> Net.__gt__ terminates: fuel 3 always yields one of the
   three general branches and more fuel does not change the result (both before and after the
   repair of the special case) *)
Theorem C13_ops_terminate : forall fixed isgt a b,
  (exists r, net_op fixed OPFUEL isgt a b = Some r /\
             (r = gt_plain a b \/ r = gt_plain b a \/ r = add_plain a b)) /\
  (forall k, net_op fixed (OPFUEL + k) isgt a b = net_op fixed OPFUEL isgt a b).
Proof.
  intros. destruct (net_op_total fixed isgt a b) as [r [H C]]. split.
  - exists r. split; [apply (H 0)|exact C].
  - intro k. rewrite H. symmetry. apply (H 0).
Qed.
Print Assumptions C13_ops_terminate.

(* the reversed stack pass over tree._nodes is the recursive decoder *)
Theorem C13_stack_is_recursive : forall fixed nv t st n,
  run_stack fixed nv (rev (prefix t)) st n =
  match decode_rec fixed nv t n with Some (r, n') => Some (r :: st, n') | None => None end.
Proof. intros. apply run_stack_prefix. Qed.
Print Assumptions C13_stack_is_recursive.

(* for EVERY tree over {+, >} with input-block terminals (any sets of column ids), the bias
   terminal and hidden blocks of any size and activation, any n_variables >= 1, n_outputs >= 1:
   decoding terminates and the result is Valid; moreover inputs are columns of X, hidden ids are
   contiguous from n_variables, the outputs are the last n_outputs ids and share one source set *)
Theorem C13_decode_valid : forall fixed nv nout oact t,
  1 <= nv -> 1 <= nout -> wf_tree nv t ->
  exists r, decode fixed nv nout oact t = Some r /\ Decoded nv nout r.
Proof. exact decode_valid. Qed.
Print Assumptions C13_decode_valid.

Theorem C13_decoded_is_valid : forall nv nout r, Decoded nv nout r -> Valid r.
Proof. intros nv nout r H. exact (d_valid _ _ _ H). Qed.
Print Assumptions C13_decoded_is_valid.

(* consequences the property text names explicitly: no cycles; every hidden node reaches an output *)
Theorem C13_valid_acyclic : forall n, Valid n -> forall v, ~ reach (n_con n) v v.
Proof.
  intros n V v H. destruct (v_rank n V) as [rank R]. pose proof (reach_rank n rank v v R H). lia.
Qed.
Print Assumptions C13_valid_acyclic.

Theorem C13_valid_path_to_output : forall n, Valid n ->
  forall v, In v (hidden n) -> exists o, In o (n_out n) /\ reach (n_con n) v o.
Proof.
  intros n V. destruct (v_rank n V) as [rank R]. pose proof R as R'.
  destruct R' as [R1 [R2 [R3 R4]]].
  assert (Main : forall k v, In v (hidden n) -> S (length (n_hid n)) - rank v <= k ->
                             exists o, In o (n_out n) /\ reach (n_con n) v o).
  { induction k as [|k IH]; intros v Hv Hk.
    - exfalso. apply hidden_level in Hv. destruct Hv as [j [Hv Hj]].
      rewrite (rank_ok_level n rank v j R Hv) in Hk. lia.
    - destruct (v_outgoing n V v Hv) as [b Hb]. destruct (R4 v b Hb) as [Hr [_ [Hh|Ho]]].
      + destruct (IH b Hh) as [o [Ho Hp]]; [lia|]. exists o. split; auto.
        eapply reach_trans; eauto.
      + exists b. split; auto. apply reach_step; auto. }
  intros v Hv. apply (Main (S (length (n_hid n)) - rank v)); auto.
Qed.
Print Assumptions C13_valid_path_to_output.

(* the boolean predicate the correspondence evaluates on the implementation's nets implies Valid *)
Theorem C13_valid_b_sound : forall n, valid_b n = true -> Valid n.
Proof. exact valid_b_sound. Qed.
Print Assumptions C13_valid_b_sound.

(* Net._get_order on a Valid net: the  while calculated != purpose  loop ends within
   #groups passes (order_fuel n); the schedule lists every hidden and output node exactly once
   (Permutation), every group's sources are inputs or targets of earlier groups (well_sched),
   and every group is one entry of the pairs table built from the connection rows *)
Theorem C13_order_terminates : forall n, Valid n ->
  exists s, get_order (order_fuel n) n = Some s /\
            well_sched (n_in n) s /\
            Permutation.Permutation (targets s) (hidden n ++ n_out n) /\
            Forall (group_of (n_act n) (build_pairs (n_con n))) s.
Proof. intros n V. apply order_terminates, Valid_Layered, V. Qed.
Print Assumptions C13_order_terminates.

(* consequently for every decoded tree *)
Theorem C13_decoded_order_terminates : forall fixed nv nout oact t,
  1 <= nv -> 1 <= nout -> wf_tree nv t ->
  exists r s, decode fixed nv nout oact t = Some r /\ get_order (order_fuel r) r = Some s /\
              Permutation.Permutation (targets s) (hidden r ++ n_out r).
Proof.
  intros fixed nv nout oact t H1 H2 H3.
  destruct (decode_valid fixed nv nout oact t H1 H2 H3) as [r [E D]].
  destruct (order_terminates r (Valid_Layered r (d_valid _ _ _ D))) as [s [Es [_ [P _]]]].
  exists r, s. auto.
Qed.
Print Assumptions C13_decoded_order_terminates.

(* the MLP builder after the repair of Net.__gt__ (fixed = true): for EVERY hidden tuple with
   sizes >= 1, n_inputs >= 1, n_outputs >= 1, offset on/off: layers are the requested id ranges,
   the connection SET is full bipartite between consecutive layers plus bias -> every layer when
   offset, one weight per connection row, requested activations on hidden and output nodes *)
Theorem C13_mlp_architecture : forall ni no hs act offset oact,
  1 <= ni -> 1 <= no -> Forall (fun h => 1 <= h) hs ->
  exists r, define_net true ni no hs act offset oact = Some r /\
    n_in r = seq 0 ni /\ n_hid r = mlp_ranges ni hs /\ n_out r = seq (ni + list_sum hs) no /\
    (forall c, In c (n_con r) <-> In c (mlp_spec_connects ni no hs offset)) /\
    n_nw r = length (n_con r) /\
    (forall v, In v (hidden r) -> alookup v (n_act r) = Some act) /\
    (forall v, In v (n_out r) -> alookup v (n_act r) = Some oact).
Proof. exact mlp_architecture. Qed.
Print Assumptions C13_mlp_architecture.

(* the connection rows as a MULTISET, for EVERY hidden tuple (sizes >= 1), n_inputs, n_outputs >= 1,
   offset on/off: the rows are a permutation of the specification list (full bipartite between
   consecutive layers ++ bias -> every layer when offset), and the exact multiplicity of every row
   is: 2 for bias -> first layer when offset (the bias column is also an input column), 1 for every
   other requested row, 0 for anything else *)
Theorem C13_mlp_duplicates : forall ni no hs act offset oact,
  1 <= ni -> 1 <= no -> Forall (fun h => 1 <= h) hs ->
  exists r, define_net true ni no hs act offset oact = Some r /\
    Permutation.Permutation (n_con r) (mlp_spec_connects ni no hs offset) /\
    forall c, count_pair c (n_con r) =
      if offset && (fst c =? ni - 1) && mem (snd c) (hd [] (mlp_ranges ni (hs ++ [no]))) then 2
      else if existsb (pair_eqb c) (mlp_spec_connects ni no hs offset) then 1 else 0.
Proof. exact mlp_duplicates. Qed.
Print Assumptions C13_mlp_duplicates.

(* bounded instance of C13_mlp_duplicates (follows from it: the boolean multiplicity check accepts
   what the theorem describes): hidden tuples of <= 3 layers with sizes 1..3, n_inputs 1..4,
   n_outputs 1..3 *)
Theorem C13_mlp_duplicates_sweep_3layers_size3_in4_out3 : mlp_dups_sweep = true.
Proof.
  apply sweep_all. intros hs ni no offset Hf Hni Hno.
  destruct (mlp_duplicates ni no hs 1 offset 5 Hni Hno Hf) as [r [E [P Hc]]]. rewrite E.
  apply forallb_forall. intros c Hin. rewrite Hc.
  destruct (offset && (fst c =? ni - 1) && mem (snd c) (hd [] (mlp_ranges ni (hs ++ [no])))); auto.
  rewrite (proj2 (existsb_pair_In c _)); auto. apply (Permutation.Permutation_in _ P), Hin.
Qed.
Print Assumptions C13_mlp_duplicates_sweep_3layers_size3_in4_out3.

(* record of the defect repaired in Net.__gt__ (DESIGN §7 item 17): before the repair
   (fixed = false) the builder with no hidden layer and offset connects no feature at all *)
Theorem C13_mlp_no_hidden_offset_refuted :
  exists ni no act oact r,
    define_net false ni no [] act true oact = Some r /\
    ~ (forall c, In c (mlp_spec_connects ni no [] true) -> In c (n_con r)).
Proof.
  exists 4, 3, 0, 5. eexists. split.
  - vm_compute. reflexivity.
  - intro H. specialize (H (0, 4)). simpl in H.
    assert (Hin : In (0, 4) [(3, 4); (3, 5); (3, 6)]) by (apply H; auto).
    simpl in Hin. repeat (destruct Hin as [Hin|Hin]; [discriminate|]). exact Hin.
Qed.
Print Assumptions C13_mlp_no_hidden_offset_refuted.

(* NOT proved here (rests on other properties / on the correspondence):
     shape of the forward output : C12_forward_shape (props/C12.v) for the model; shape and finiteness
                           of the real forward are observed on every case of the correspondence.
     weights in the box  : trained weights lie in [-10,10] because candidates do (C07 for the DE
                           family, C10_in_box for the 16-bit Gray grid); checked live on tiny
                           trainings by the correspondence (SHADE fails: known finding, C07). *)

(* non-vacuity: a concrete tree ((in{0,1} + bias) > (hid2 + hid1)) decodes to the expected net,
   the hypotheses of C13_decode_valid are met, and the boolean Valid holds on it *)
Example C13_nonvacuous :
  wf_tree 4 (TNode true (TNode false (TIn [0; 1]) TBias) (TNode false (THid 2 1) (THid 1 4))) /\
  (exists r, decode true 4 3 5 (TNode true (TNode false (TIn [0; 1]) TBias)
                                      (TNode false (THid 2 1) (THid 1 4))) = Some r /\
             valid_b r = true /\ n_hid r = [[5; 6; 4]] /\ n_out r = [7; 8; 9] /\
             length (n_con r) = 18) /\
  (exists r, define_net true 4 3 [] 0 true 5 = Some r /\ length (n_con r) = 15).
Proof.
  split; [|split].
  - simpl. repeat split; auto; try (repeat constructor; simpl; intuition discriminate).
    intros v [<-|[<-|[]]]; lia.
  - eexists. split; [vm_compute; reflexivity|]. vm_compute. auto.
  - eexists. split; [vm_compute; reflexivity|]. vm_compute. auto.
Qed.
Print Assumptions C13_nonvacuous.
