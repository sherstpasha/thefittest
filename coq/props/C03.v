(* C03 — evaluation budget and stopping rules are honoured exactly. *)
From TF Require Import Base EALoop EALoopProofs EALoopProofs2.
Open Scope Q_scope.

(* at most iters generations of exactly pop_size evaluations each; remaining calls; one callback per
   generation after the first *)
Theorem C03_budget :
  forall (G P : Type) (g2p : G -> P) (nf : P -> Q) (k : kind) (elitism keep_history : bool)
         (aim : option Q) (no_increase_num : option nat) (var : state G P -> list G) (n : nat),
  (0 < n)%nat -> (forall st, length (var st) = n) ->
  forall iters gs0, (1 <= iters)%nat -> length gs0 = n ->
  let st := fit G P g2p nf k elitism keep_history aim no_increase_num var iters gs0 in
  (1 <= gens st <= iters)%nat /\ calls st = (n * gens st)%nat /\
  callbacks st = (gens st - 1)%nat /\
  (n * iters - calls st = n * (iters - gens st))%nat.
Proof. exact budget. Qed.
Print Assumptions C03_budget.

(* the run is the last state of its trajectory; every earlier state failed the termination test
   ("never earlier"); the last one passes it or the budget is exhausted ("immediately after") *)
Theorem C03_stop_exact :
  forall (G P : Type) (g2p : G -> P) (nf : P -> Q) (k : kind) (elitism keep_history : bool)
         (aim : option Q) (no_increase_num : option nat) (var : state G P -> list G),
  forall iters gs0, (1 <= iters)%nat ->
  let st0 := step G P g2p nf k elitism keep_history true (init_state G P) gs0 in
  let tr := trajectory G P g2p nf k elitism keep_history aim no_increase_num var (iters - 1) st0 in
  fit G P g2p nf k elitism keep_history aim no_increase_num var iters gs0 = last tr st0 /\
  (forall i, (S i < length tr)%nat -> terminate G P aim no_increase_num (nth i tr st0) = false) /\
  (terminate G P aim no_increase_num (last tr st0) = true \/ length tr = iters).
Proof.
  intros G P g2p nf k e kh aim nin var iters gs0 Hit. destruct iters as [|m]; [lia|].
  unfold fit. replace (S m - 1)%nat with m by lia. apply trajectory_spec.
Qed.
Print Assumptions C03_stop_exact.

(* the target is on the correct side for minimisation and for maximisation *)
Theorem C03_aim_side : forall minimization v err x,
  match aim_of minimization (Some v) err with
  | Some a => (a <= sign_of minimization * x <-> if minimization then x <= v + err else v - err <= x)
  | None => False
  end.
Proof. intros mn v err x. unfold aim_of, sign_of. destruct mn; split; intros H; lra. Qed.
Print Assumptions C03_aim_side.

(* stagnation counter: reset exactly on strict improvement, otherwise incremented *)
Theorem C03_stagnation :
  forall (G P : Type) (b : option (indiv G P)) c p b' c', update_best G P b c p = (b', c') -> p <> [] ->
  exists m, b' = Some m /\ (In m p \/ b = Some m) /\ Forall (fun x => ifit x <= ifit m) p /\
    (forall b0, b = Some b0 -> ifit b0 <= ifit m) /\
    ((c' = 0%nat /\ (b = None \/ exists b0, b = Some b0 /\ ifit b0 < ifit m)) \/
     (c' = S c /\ b = Some m)).
Proof. exact update_best_spec. Qed.
Print Assumptions C03_stagnation.

Example C03_nonvacuous :
  let var := fun st : state Z Z => [Z.of_nat (gens st); 0]%Z in
  let st := fit Z Z (fun g => g) (fun p => inject_Z p) Generational true false (Some (2 # 1)) None var 10 [0; 0]%Z in
  gens st = 3%nat /\ calls st = 6%nat /\ callbacks st = 2%nat.
Proof. vm_compute. auto. Qed.
Print Assumptions C03_nonvacuous.

(* EvolutionaryAlgorithm._get_aim / _termitation_check / get_remains_calls and the constructor lines that set _sign, _aim,
   _calls, generated from base/_ea.py into gen/GenLoop.v, are EQUAL to the model's aim_of / terminate and the remaining-calls
   formula: theories/CodeEqLoop.v. *)
From TF Require Import Py CodeEqLoop.
From TFG Require Import GenLoop.

Theorem C03_code_get_aim : forall (G P : Type) (self : EvolutionaryAlgorithm G P) (minimization : bool) optimal err,
  ea_sign G P self = (if minimization then -1 else 1)%Z ->
  abs_aim (py_EvolutionaryAlgorithm__get_aim G P self optimal err) = aim_of minimization optimal err.
Proof. exact code_get_aim. Qed.
Print Assumptions C03_code_get_aim.

Theorem C03_code_terminate : forall (G P : Type) (self : EvolutionaryAlgorithm G P) (st : state G P),
  ea_aim G P self <> NegInf -> tf_fitness G P (ea_thefittest G P self) <> PosInf ->
  best st = abs_best G P (ea_thefittest G P self) ->
  Z.of_nat (counter st) = tf_no_update_counter G P (ea_thefittest G P self) ->
  (forall n, ea_no_increase_num G P self = Some n -> (0 <= n)%Z) ->
  py_EvolutionaryAlgorithm__termitation_check G P self
  = terminate G P (abs_aim (ea_aim G P self)) (abs_nin (ea_no_increase_num G P self)) st.
Proof. exact code_terminate. Qed.
Print Assumptions C03_code_terminate.

Theorem C03_code_remains : forall (G P : Type) (self : EvolutionaryAlgorithm G P),
  py_EvolutionaryAlgorithm_get_remains_calls G P self
  = (ea_iters G P self * ea_pop_size G P self - ea_calls G P self)%Z.
Proof. intros. unfold py_EvolutionaryAlgorithm_get_remains_calls. lia. Qed.
Print Assumptions C03_code_remains.

Theorem C03_code_init : forall (G P : Type) (dG : G) (dP : P) iters pop_size minimization optimal err nin elitism keep_history n_jobs has_cb,
  let self := py_EvolutionaryAlgorithm_init G P dG dP iters pop_size minimization optimal err nin elitism keep_history n_jobs has_cb in
  abs_best G P (ea_thefittest G P self) = None /\ tf_no_update_counter G P (ea_thefittest G P self) = 0%Z /\
  ea_calls G P self = 0%Z /\ abs_aim (ea_aim G P self) = aim_of minimization optimal err /\ ea_aim G P self <> NegInf /\
  ea_stats G P self = [] /\ snd (ea_on_generation G P self) = 0%Z.
Proof. exact code_init. Qed.
Print Assumptions C03_code_init.
