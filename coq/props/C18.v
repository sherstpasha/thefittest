(* C18 — estimators predict with the model they fitted, scikit-learn style.
   The assistant carries the logic of the library's own glue (labels, arg-max label, probability rows,
   reserved arguments, "prediction = the evaluation used in training"); scikit-learn's validation
   machinery and the equality of the two evaluations in the CODE are tied by the correspondence. *)
From Coq Require Import String.
From TF Require QSum.
From TF Require Import Base RandomPrims RandomPrimsProofs Estimator EstimatorProofs.
From TFG Require Import GenMisc.
Open Scope Q_scope.

Theorem C18_label_roundtrip : forall ys y, In y ys ->
  exists i, encode (classes ys) y = Some i /\ (i < length (classes ys))%nat /\ decode (classes ys) i = y.
Proof. intros ys y H. apply index_of_spec, classes_in, H. Qed.
Print Assumptions C18_label_roundtrip.

Theorem C18_classes_are_the_labels : forall ys x, In x (classes ys) <-> In x ys.
Proof. exact classes_in. Qed.
Print Assumptions C18_classes_are_the_labels.

(* predict returns the original class label of the arg-max column *)
Theorem C18_predict_label : forall cs proba, proba <> [] -> length proba = length cs ->
  In (predict_label cs proba) cs /\
  predict_label cs proba = nth (argmax proba) cs 0%Z /\
  Forall (fun p => p <= nth (argmax proba) proba 0) proba.
Proof.
  intros cs proba Hne Hl. destruct (argmax_spec proba 0 Hne) as (Ha & Hb). unfold predict_label, decode.
  split; [apply nth_In; lia|]. split; auto.
Qed.
Print Assumptions C18_predict_label.

(* predict_proba rows are non-negative and sum to 1: sigmoid pair, and softmax over positive exponentials *)
Theorem C18_proba_rows_pair : forall s, 0 <= s -> s <= 1 ->
  Forall (fun p => 0 <= p) (proba_pair s) /\ qsum (proba_pair s) == 1.
Proof. intros s H0 H1. unfold proba_pair. split; [repeat constructor; lra|cbn; lra]. Qed.
Print Assumptions C18_proba_rows_pair.

Theorem C18_proba_rows_softmax : forall es, es <> [] -> Forall (fun e => 0 < e) es ->
  Forall (fun p => 0 < p) (normalise es) /\ qsum (normalise es) == 1 /\ length (normalise es) = length es.
Proof.
  intros es Hne Hpos.
  destruct (QSum.normalise_dist es (QSum.qsum_pos_all es Hne Hpos)) as (Hl & Hs & _ & Hp). auto.
Qed.
Print Assumptions C18_proba_rows_softmax.

(* the error of the training-set predictions is the training objective of the stored model *)
Theorem C18_train_error : forall (Model Data Out : Type) (evalm : Model -> Data -> Out) (metric : Out -> Out -> Q) y X m,
  metric y (predict_out Model Data Out evalm m X) = training_objective Model Data Out evalm metric y X m.
Proof. intros. apply train_error. Qed.
Print Assumptions C18_train_error.

(* optimizer arguments the estimator defines itself are rejected: exactly the reserved names *)
Theorem C18_reserved_args_rejected : forall reserved keys,
  accepts reserved keys = true <-> forall k, In k keys -> ~ In k reserved.
Proof. exact accepts_spec. Qed.
Print Assumptions C18_reserved_args_rejected.

(* the reserved names, re-extracted from the source on every run: every estimator reserves the arguments
   it sets itself; the primary optimizer dicts also reserve iters / pop_size (class arguments) *)
Definition core : list string :=
  ["fitness_function"; "fitness_function_args"; "genotype_to_phenotype"; "genotype_to_phenotype_args"; "init_population"; "minimization"]%string.
Definition weights_extra : list string := ["left_border"; "right_border"; "num_variables"; "str_len"]%string.
Definition incl_b (a b : list string) : bool := forallb (fun x => existsb (String.eqb x) b) a.
Definition entry_ok (e : string * string * list string * list string) : bool :=
  let '(m, v, auto, incls) := e in
  incl_b core auto &&
  (if String.eqb v "weights_optimizer_args" then incl_b weights_extra auto else true) &&
  (if String.eqb m "thefittest.base._gpnn" && String.eqb v "weights_optimizer_args" then true
   else incl_b ["iters"; "pop_size"]%string incls).
Theorem C18_reserved_args_table :
  forallb entry_ok reserved_args = true /\ List.length reserved_args = 4%nat.
Proof. vm_compute. auto. Qed.
Print Assumptions C18_reserved_args_table.

Example C18_nonvacuous :
  classes [7; 3; 7; 11; 3]%Z = [3; 7; 11]%Z /\ predict_label [3; 7; 11]%Z [1 # 4; 1 # 2; 1 # 4] = 7%Z /\
  accepts ["iters"; "pop_size"]%string ["keep_history"]%string = true /\
  accepts ["iters"; "pop_size"]%string ["keep_history"; "iters"]%string = false.
Proof. vm_compute. auto. Qed.
Print Assumptions C18_nonvacuous.
