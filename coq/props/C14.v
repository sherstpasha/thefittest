(* C14 — self-configuration keeps operator probabilities a distribution and uses them.
   Proofs in theories/SelfConfProofs.v and CodeEqC14.v (the code equalities at the end); the update
   rule of one entry and the example are proved here. *)
From TF Require Import Base RandomPrims RandomPrimsProofs SelfConf SelfConfProofs.
Open Scope Q_scope.

(* SelfC*: the updated map has the same names, sums to 1, is strictly positive ... *)
Theorem C14_distribution_selfc : forall K iters thr p w,
  0 < thr -> thr <= 1 -> p <> [] ->
  let q := selfc_new_proba K iters thr p w in
  length q = length p /\ qsum q == 1 /\ Forall (fun x => 0 < x) q.
Proof. exact selfc_distribution. Qed.
Print Assumptions C14_distribution_selfc.

(* ... and never falls below the floor after renormalisation: thr / (1 + z thr + K/iters) *)
Theorem C14_floor_selfc : forall K iters thr p w,
  0 < thr -> thr <= 1 -> 0 <= K -> 0 < iters -> p <> [] ->
  qsum p == 1 -> Forall (fun x => 0 <= x) p ->
  let z := inject_Z (Z.of_nat (length p)) in
  Forall (fun x => thr / (1 + z * thr + K / iters) <= x) (selfc_new_proba K iters thr p w).
Proof. exact selfc_floor. Qed.
Print Assumptions C14_floor_selfc.

(* PDP*: floor plus share proportional to (successes^2+1)/(uses+1): a distribution, never below thr *)
Theorem C14_distribution_pdp : forall thr z labels succ,
  0 < thr -> inject_Z (Z.of_nat z) * thr <= 1 ->
  (exists j, (j < z)%nat /\ In j labels) ->
  distribution thr z (pdp_new_proba thr z labels succ).
Proof. exact pdp_distribution. Qed.
Print Assumptions C14_distribution_pdp.

(* SelfC* rule: the operator that gains K/iters is one that created offspring and has the best mean
   offspring fitness (on ties the model takes the first in sorted-name order; only maximality is stated) *)
Theorem C14_selfc_rule_winner : forall z labels fit, (exists j, (j < z)%nat /\ present j labels fit) ->
  let w := find_fittest_operator z labels fit in
  (w < z)%nat /\ present w labels fit /\
  forall i, (i < z)%nat -> present i labels fit -> mean (members i labels fit) <= mean (members w labels fit).
Proof. exact find_fittest_spec. Qed.
Print Assumptions C14_selfc_rule_winner.

(* the winner gains K/iters, everyone loses K/(z*iters); then clip to [thr,1] and normalise *)
Theorem C14_selfc_rule_update : forall K iters thr p w i, (i < length p)%nat -> (w < length p)%nat ->
  nth i (selfc_raw K iters p w) 0 ==
    nth i p 0 + (if (i =? w)%nat then K / iters else 0) - K / (inject_Z (Z.of_nat (length p)) * iters) /\
  selfc_new_proba K iters thr p w =
    map (fun x => x / qsum (map (clip thr 1) (selfc_raw K iters p w))) (map (clip thr 1) (selfc_raw K iters p w)).
Proof.
  intros K iters thr p w i Hi Hw. split; [|reflexivity]. unfold selfc_raw.
  rewrite (nth_map_default (fun x => x - K / (inject_Z (Z.of_nat (length p)) * iters)) _ i 0 0) by (rewrite upd_length; auto).
  destruct (Nat.eqb_spec i w) as [->|Hne]; [rewrite nth_upd_eq by auto|rewrite nth_upd_neq by auto]; ring.
Qed.
Print Assumptions C14_selfc_rule_update.

(* the operators that create the next generation are drawn from the UPDATED maps, one triple per individual *)
Theorem C14_redraw_uses_updated_selfc : forall K iters ts tc tm pop_size m o fit ds m' o' ds',
  selfc_adapt K iters ts tc tm pop_size m o fit ds = Some ((m', o'), ds') ->
  m_sel m' = selfc_new_proba K iters ts (m_sel m) (find_fittest_operator (length (m_sel m)) (o_sel o) fit) /\
  m_cx m' = selfc_new_proba K iters tc (m_cx m) (find_fittest_operator (length (m_cx m)) (o_cx o) fit) /\
  m_mu m' = selfc_new_proba K iters tm (m_mu m) (find_fittest_operator (length (m_mu m)) (o_mu o) fit) /\
  exists s c u ds1 ds2,
    choice_operators (m_sel m') pop_size ds = Some (s, ds1) /\
    choice_operators (m_cx m') pop_size ds1 = Some (c, ds2) /\
    choice_operators (m_mu m') pop_size ds2 = Some (u, ds') /\
    o_sel o' = nats s /\ o_cx o' = nats c /\ o_mu o' = nats u.
Proof.
  intros until ds'. intros H. unfold selfc_adapt in H. minv H. cbn [m_sel m_cx m_mu o_sel o_cx o_mu].
  repeat split; auto. do 5 eexists. repeat split; eauto.
Qed.
Print Assumptions C14_redraw_uses_updated_selfc.

Theorem C14_redraw_uses_updated_pdp : forall ts tc tm pop_size m o previous fit ds m' o' ds', previous <> [] ->
  pdp_adapt ts tc tm pop_size m o previous fit ds = Some ((m', o'), ds') ->
  let sc := success_mask previous fit in
  m_sel m' = pdp_new_proba ts (length (m_sel m)) (o_sel o) sc /\
  m_cx m' = pdp_new_proba tc (length (m_cx m)) (o_cx o) sc /\
  m_mu m' = pdp_new_proba tm (length (m_mu m)) (o_mu o) sc /\
  exists s c u ds1 ds2,
    choice_operators (m_sel m') pop_size ds = Some (s, ds1) /\
    choice_operators (m_cx m') pop_size ds1 = Some (c, ds2) /\
    choice_operators (m_mu m') pop_size ds2 = Some (u, ds') /\
    o_sel o' = nats s /\ o_cx o' = nats c /\ o_mu o' = nats u.
Proof.
  intros until ds'. intros Hne H. unfold pdp_adapt in H. destruct previous as [|p0 pr]; [congruence|]. minv H.
  cbv zeta. cbn [m_sel m_cx m_mu o_sel o_cx o_mu]. repeat split; auto. do 5 eexists. repeat split; eauto.
Qed.
Print Assumptions C14_redraw_uses_updated_pdp.

Theorem C14_one_operator_per_individual : forall p pop_size ds s ds', p <> [] ->
  choice_operators p pop_size ds = Some (s, ds') ->
  length s = pop_size /\ Forall (fun v => (0 <= v < Z.of_nat (length p))%Z) s.
Proof. intros p pop_size ds s ds' Hne H. eapply weighted_selection_count_range; eauto. Qed.
Print Assumptions C14_one_operator_per_individual.

(* record of the repaired defect: PDPGA/PDPGP updated the maps but never re-drew the operators *)
Theorem C14_pdp_no_redraw_refuted : forall ts tc tm m o previous fit,
  snd (pdp_adapt_old ts tc tm m o previous fit) = o.
Proof. intros. unfold pdp_adapt_old. destruct previous; reflexivity. Qed.
Print Assumptions C14_pdp_no_redraw_refuted.

Example C14_nonvacuous :
  Qeq_bool (qsum (selfc_new_proba 2 10 (1 # 20) [1 # 3; 1 # 3; 1 # 3] 1)) 1 = true /\
  find_fittest_operator 3 [0; 2; 2; 0]%nat [1; 5; 3; 2] = 2%nat /\
  Qeq_bool (qsum (pdp_new_proba (1 # 20) 3 [0; 2; 2; 0]%nat [true; false; true; false])) 1 = true.
Proof. vm_compute. auto. Qed.
Print Assumptions C14_nonvacuous.

(* The tie to the source for the SelfC* update rule.  SelfCGA._get_new_proba (inherited by SelfCGP) is translated on every run
   (harness/translate_code.py; the str-keyed probability dict is modelled by its value list in key order, the winner's key by its
   position; the in-place update of the caller's dict is part of the result).  For every K, iters, threshold <= 1, map and winner:
   the returned map is selfc_new_proba (entries ==), so C14_distribution_selfc / C14_floor_selfc / C14_selfc_rule_update above are
   statements about what the source computes. *)
From TF Require Import Py CodeEqC14.
From TFG Require Import GenCode.
Open Scope Q_scope.

Theorem C14_code_selfc_new_proba : forall (K : Q) (iters : Z) (thr : Q) (p : list Q) (w : Z), (0 <= w)%Z -> thr <= 1 ->
  fst (py_SelfCGA_get_new_proba K iters p w thr) = upd p (Z.to_nat w) (nth (Z.to_nat w) p 0 + K / ZtoQ iters) /\
  Forall2 Qeq (snd (py_SelfCGA_get_new_proba K iters p w thr)) (selfc_new_proba K (ZtoQ iters) thr p (Z.to_nat w)).
Proof. exact code_selfc_new_proba. Qed.
Print Assumptions C14_code_selfc_new_proba.

(* ... hence, about the source's own _get_new_proba: for any previous map, winner, K, iters and threshold in (0, 1] the returned map has one
   entry per name, sums to 1 and is strictly positive *)
Theorem C14_src_selfc_distribution : forall (K : Q) (iters : Z) (thr : Q) (p : list Q) (w : Z),
  (0 <= w)%Z -> 0 < thr -> thr <= 1 -> p <> [] ->
  let q := snd (py_SelfCGA_get_new_proba K iters p w thr) in
  length q = length p /\ qsum q == 1 /\ Forall (fun x => 0 < x) q.
Proof. exact src_selfc_distribution. Qed.
Print Assumptions C14_src_selfc_distribution.
