(* C19 — built-in metrics equal their textbook definitions.
   Statements; models in theories/Metrics.v, proofs in theories/MetricsProofs.v (the example at the end of the
   first part is checked here).
   Admissible classification input ([admissible k y p]): y non-empty and label-encoded (takes
   exactly the values 0..k-1), p of the same length with values among 0..k-1.
   TP/FN/FP are defined by counting ([pairs_count] = length of a filtered zip), macro averages
   and regression sums by the index sum [sum_upto]. *)
From TF Require Import Base Metrics MetricsProofs.
Open Scope Q_scope.

(* confusion_matrix is k x k and  cm[i][j] = #{ s | y_s = i /\ p_s = j } *)
Theorem C19_confusion : forall k y p, admissible k y p ->
  length (confusion_matrix y p) = k /\
  (forall i, (i < k)%nat -> length (nth i (confusion_matrix y p) []) = k) /\
  (forall i j, (i < k)%nat -> (j < k)%nat ->
     nth j (nth i (confusion_matrix y p) []) 0%nat
     = pairs_count (fun t q => (t =? i)%nat && (q =? j)%nat) y p).
Proof. exact confusion_matrix_spec. Qed.
Print Assumptions C19_confusion.

(* accuracy = #{ y_s = p_s } / n *)
Theorem C19_accuracy : forall y p, length p = length y ->
  accuracy_score y p = Qn (pairs_count Nat.eqb y p) / Qn (length y).
Proof. exact accuracy_spec. Qed.
Print Assumptions C19_accuracy.

(* macro recall: mean over the classes of TP/(TP+FN), 0 for a class without true positives *)
Theorem C19_recall : forall k y p, admissible k y p ->
  recall_score y p
  = sum_upto k (fun c => if (TP c y p =? 0)%nat then 0 else Qn (TP c y p) / Qn (TP c y p + FN c y p)) / Qn k.
Proof. exact recall_spec. Qed.
Print Assumptions C19_recall.

(* macro precision: mean over the classes of TP/(TP+FP), 0 for a class without true positives *)
Theorem C19_precision : forall k y p, admissible k y p ->
  precision_score y p
  = sum_upto k (fun c => if (TP c y p =? 0)%nat then 0 else Qn (TP c y p) / Qn (TP c y p + FP c y p)) / Qn k.
Proof. exact precision_spec. Qed.
Print Assumptions C19_precision.

(* macro F1: mean over the classes of the harmonic mean of the counting precision and recall,
   0 for a class without true positives *)
Theorem C19_f1 : forall k y p, admissible k y p ->
  f1_score y p
  = sum_upto k (fun c =>
      if (TP c y p =? 0)%nat then 0 else
        let P := Qn (TP c y p) / Qn (TP c y p + FP c y p) in
        let R := Qn (TP c y p) / Qn (TP c y p + FN c y p) in
        2 * (P * R) / (P + R)) / Qn k.
Proof. exact f1_spec. Qed.
Print Assumptions C19_f1.

(* ... which is 2TP / (2TP + FP + FN) per class *)
Theorem C19_f1_counts : forall tp fp fn,
  (if (tp =? 0)%nat then 0 else
     let P := Qn tp / Qn (tp + fp) in let R := Qn tp / Qn (tp + fn) in 2 * (P * R) / (P + R))
  == Qn (2 * tp) / Qn (2 * tp + fp + fn).
Proof. exact f1_textbook_counts. Qed.
Print Assumptions C19_f1_counts.

(* RMSE = sqrt of a radicand m that equals the mean of the squared errors, m >= 0; wherever the
   square-root function is correct at m, rmse^2 = mean squared error.  sqrt is arbitrary. *)
Theorem C19_rmse : forall (sqrt : Q -> Q) y p, length p = length y ->
  exists m, root_mean_square_error sqrt y p = sqrt m /\
            m == sum_upto (length y) (fun i => (nth i y 0 - nth i p 0) ^ 2) / Qn (length y) /\
            0 <= m /\
            (sqrt m * sqrt m == m ->
             root_mean_square_error sqrt y p * root_mean_square_error sqrt y p
             == sum_upto (length y) (fun i => (nth i y 0 - nth i p 0) ^ 2) / Qn (length y)).
Proof. exact rmse_spec. Qed.
Print Assumptions C19_rmse.

(* R^2 = 1 - SSres/SStot; when SStot = 0 the denominator is replaced by 1e-10 *)
Theorem C19_r2 : forall y p, length p = length y ->
  (~ SStot y == 0 -> coefficient_determination y p == 1 - SSres y p / SStot y) /\
  (SStot y == 0 -> coefficient_determination y p == 1 - SSres y p / (1 # 10000000000)).
Proof. exact r2_spec. Qed.
Print Assumptions C19_r2.

(* SStot = 0 exactly for constant targets *)
Theorem C19_r2_constant_target : forall y, y <> [] ->
  (SStot y == 0 <-> exists c, forall i, (i < length y)%nat -> nth i y 0 == c).
Proof. exact SStot_zero_iff_constant. Qed.
Print Assumptions C19_r2_constant_target.

(* a perfect prediction scores exactly 1, constant target or not *)
Theorem C19_r2_perfect : forall y, coefficient_determination y y == 1.
Proof. exact r2_perfect. Qed.
Print Assumptions C19_r2_perfect.

(* cross-entropy of an n x c pair = mean over samples of  - sum_j clip(t_ij) * ln(clip(o_ij)),
   clip to [lo, hi] (the code: lo = 1e-7, hi = 1 - 1e-7); ln is arbitrary *)
Theorem C19_crossentropy : forall (ln : Q -> Q) lo hi n c T O, rect n c T -> rect n c O ->
  categorical_crossentropy ln lo hi T O
  = sum_upto n (fun i => sum_upto c (fun j =>
      - clip lo hi (nth j (nth i T []) 0) * ln (clip lo hi (nth j (nth i O []) 0)))) / Qn n.
Proof. exact crossentropy_spec. Qed.
Print Assumptions C19_crossentropy.

(* the code clips the target as well as the prediction; for targets in [0,1] this moves the value
   by at most c * eps * L from the definition that clips only the prediction
   (eps >= lo, 1 - hi;  L bounds -ln on [lo, hi]: for the code eps = 1e-7, L = ln 1e7 ~ 16.12) *)
Theorem C19_crossentropy_target_clip_deviation : forall (ln : Q -> Q) lo hi eps L n c T O,
  0 <= lo -> lo <= hi -> lo <= eps -> 1 - hi <= eps -> (0 < n)%nat ->
  (forall x, lo <= x -> x <= hi -> 0 <= - ln x /\ - ln x <= L) ->
  (forall i j, (i < n)%nat -> (j < c)%nat -> 0 <= nth2 T i j /\ nth2 T i j <= 1) ->
  Qabs (ce_textbook ln (clip lo hi) (clip lo hi) n c T O
        - ce_textbook ln (fun t => t) (clip lo hi) n c T O) <= Qn c * (eps * L).
Proof. exact crossentropy_target_clip_deviation. Qed.
Print Assumptions C19_crossentropy_target_clip_deviation.

(* the batch loop  out = np.empty(size); for i: out[i] = f(rows[i])  returns map f rows,
   whatever the uninitialised buffer held *)
Theorem C19_batch_loop : forall (A B : Type) (f : A -> B) (d : A) (rows : list A) (garbage : list B),
  length garbage = length rows -> batch_loop f d rows garbage = map f rows.
Proof. exact @batch_loop_rowwise. Qed.
Print Assumptions C19_batch_loop.

(* each 2-D / 3-D variant is the row-wise application of its scalar version *)
Theorem C19_batch_rowwise : forall (sqrt ln : Q -> Q) (lo hi : Q)
  (yq : list Q) (Pq : list (list Q)) (T : list (list Q)) (O3 : list (list (list Q)))
  (yl : list nat) (Pl : list (list nat)) (g1 g2 g3 : list Q),
  length g1 = length Pq -> length g2 = length O3 -> length g3 = length Pl ->
  root_mean_square_error2d sqrt yq Pq g1 = map (root_mean_square_error sqrt yq) Pq /\
  coefficient_determination2d yq Pq g1 = map (coefficient_determination yq) Pq /\
  categorical_crossentropy3d ln lo hi T O3 g2 = map (categorical_crossentropy ln lo hi T) O3 /\
  accuracy_score2d yl Pl g3 = map (accuracy_score yl) Pl /\
  recall_score2d yl Pl g3 = map (recall_score yl) Pl /\
  precision_score2d yl Pl g3 = map (precision_score yl) Pl /\
  f1_score2d yl Pl g3 = map (f1_score yl) Pl.
Proof. intros until g3. intros H1 H2 H3. repeat split; apply batch_loop_rowwise; assumption. Qed.
Print Assumptions C19_batch_rowwise.

(* non-vacuity: a concrete admissible input, concrete counts, a square-root function that is
   correct at the radicand, a constant target, a rectangular matrix, a bounded ln *)
Example C19_nonvacuous :
  admissible 3 [0; 1; 2; 2; 1]%nat [0; 2; 2; 1; 1]%nat /\
  confusion_matrix [0; 1; 2; 2; 1]%nat [0; 2; 2; 1; 1]%nat = [[1; 0; 0]; [0; 1; 1]; [0; 1; 1]]%nat /\
  TP 2 [0; 1; 2; 2; 1]%nat [0; 2; 2; 1; 1]%nat = 1%nat /\
  FN 2 [0; 1; 2; 2; 1]%nat [0; 2; 2; 1; 1]%nat = 1%nat /\
  FP 2 [0; 1; 2; 2; 1]%nat [0; 2; 2; 1; 1]%nat = 1%nat /\
  recall_score [0; 1; 2; 2; 1]%nat [0; 2; 2; 1; 1]%nat == 2 # 3 /\
  f1_score [0; 1; 1]%nat [1; 1; 1]%nat == 2 # 5 /\
  (let sqrt := fun x : Q => if Qeq_bool x 4 then 2 else 0 in
   sqrt 4 * sqrt 4 == 4 /\ root_mean_square_error sqrt [3; 1] [1; 3] == 2) /\
  coefficient_determination [1 # 2; 1 # 2] [1 # 2; 1 # 4] == 1 - (1 # 16) / tiny /\
  rect 2 2 [[1; 0]; [0; 1]] /\
  (let ln := fun _ : Q => - (1) in forall x, lo7 <= x -> x <= hi7 -> 0 <= - ln x /\ - ln x <= 1).
Proof.
  split; [|repeat split; try (vm_compute; reflexivity); try (vm_compute; congruence)].
  - repeat split.
    + discriminate.
    + simpl. intros; lia.
    + simpl. intros; lia.
    + repeat constructor.
  - intros i Hi. destruct i as [|[|i]]; simpl; try reflexivity; lia.
Qed.
Print Assumptions C19_nonvacuous.

(* The tie to the source for the counting metrics.  gen/GenCode.v is regenerated on every run from the bodies of
   accuracy_score, recall_score, precision_score, f1_score and confusion_matrix in utils/_metrics.py (harness/translate_code.py; semantics of
   the subset: theories/Py.v: int64 labels as Z, np.unique as sort + dedup).  The models above are EQUAL to the
   generated definitions on every pair of label arrays; the textbook characterisations then read directly on the
   generated definitions. *)
From TF Require Import Py CodeEqC19.
From TFG Require Import GenCode.

Theorem C19_code_accuracy_score : forall y p, py_accuracy_score (zs y) (zs p) = accuracy_score y p.
Proof. exact code_accuracy_score. Qed.
Print Assumptions C19_code_accuracy_score.

Theorem C19_code_n_classes : forall y, zlen (uniqueZ (zs y)) = Z.of_nat (n_classes y).
Proof. exact code_n_classes. Qed.
Print Assumptions C19_code_n_classes.

Theorem C19_code_recall_score : forall y p, py_recall_score (zs y) (zs p) = recall_score y p.
Proof. exact code_recall_score. Qed.
Print Assumptions C19_code_recall_score.

Theorem C19_code_precision_score : forall y p, py_precision_score (zs y) (zs p) = precision_score y p.
Proof. exact code_precision_score. Qed.
Print Assumptions C19_code_precision_score.

Theorem C19_code_f1_score : forall y p, py_f1_score (zs y) (zs p) = f1_score y p.
Proof. exact code_f1_score. Qed.
Print Assumptions C19_code_f1_score.

Theorem C19_code_confusion_matrix : forall y p, py_confusion_matrix (zs y) (zs p) = map zs (confusion_matrix y p).
Proof. exact code_confusion_matrix. Qed.
Print Assumptions C19_code_confusion_matrix.
