(* C10 — binary/Gray decoding is the stated grid bijection and inverts correctly.
   Statements; models in theories/Gray.v, theories/Grid.v; each statement is a theorem of theories/GridProofs.v or CodeEqC10.v,
   or follows from those in a line or two.
   Vocabulary (Grid.v): a fitted grid is a list of variables (vl, vr, vw) with step
   vh v = (vr - vl)/(2^vw - 1); good v := vl < vr /\ 1 <= vw; in_range v i := 0 <= i <= 2^vw - 1;
   grid_point v i := vl + vh * i; in_box v x := vl <= x <= vr; kind := Binary | Gray
   (SamplingGrid | GrayCode); encode/decode = the per-variable code of an integer. *)
From TF Require Import Base Gray Grid GridProofs.
Open Scope Q_scope.

(* plain binary codec: both round trips, every width *)
Theorem C10_binary_roundtrip_int : forall w k, (0 <= k < 2 ^ Z.of_nat w)%Z ->
  bits_to_int (int_to_bits w k) = k.
Proof. exact bits_to_int_to_bits. Qed.
Print Assumptions C10_binary_roundtrip_int.

Theorem C10_binary_roundtrip_bits : forall b : list bool,
  int_to_bits (length b) (bits_to_int b) = b.
Proof. exact int_to_bits_to_int. Qed.
Print Assumptions C10_binary_roundtrip_bits.

(* reflected Gray code: both round trips, every width *)
Theorem C10_gray_roundtrip_bits : forall b : list bool, gray_to_bits (bits_to_gray b) = b.
Proof. exact gray_to_bits_to_gray. Qed.
Print Assumptions C10_gray_roundtrip_bits.

Theorem C10_gray_roundtrip_gray : forall g : list bool, bits_to_gray (gray_to_bits g) = g.
Proof. exact bits_to_gray_to_bits. Qed.
Print Assumptions C10_gray_roundtrip_gray.

(* successive Gray codes (of k and k+1) differ in exactly one bit, for every width *)
Theorem C10_gray_adjacent : forall w k, (0 <= k)%Z -> (k + 1 < 2 ^ Z.of_nat w)%Z ->
  length (bits_to_gray (int_to_bits w k)) = w /\
  length (bits_to_gray (int_to_bits w (k + 1))) = w /\
  hamming (bits_to_gray (int_to_bits w k)) (bits_to_gray (int_to_bits w (k + 1))) = 1%nat.
Proof.
  intros w k H0 H1. rewrite !bits_to_gray_length, !int_to_bits_length. repeat split. now apply gray_step.
Qed.
Print Assumptions C10_gray_adjacent.

(* transform: the concatenated codes of integers k_j map to left_j + h_j * k_j ... *)
Theorem C10_transform_point : forall k vs ks, Forall2 in_range vs ks ->
  transform_row k vs (concat (map2 (fun v i => encode k (vw v) i) vs ks)) = map2 grid_point vs ks.
Proof. exact transform_point. Qed.
Print Assumptions C10_transform_point.

(* ... and every bit string of the stated total length is such a concatenation *)
Theorem C10_every_string_is_code : forall k vs (bs : list bool), length bs = total_bits vs ->
  exists ks, Forall2 in_range vs ks /\ bs = concat (map2 (fun v i => encode k (vw v) i) vs ks).
Proof. exact every_string_is_code. Qed.
Print Assumptions C10_every_string_is_code.

Theorem C10_zero_left : forall k vs,
  Forall2 Qeq (transform_row k vs (repeat false (total_bits vs))) (map vl vs).
Proof.
  intros k vs. apply transform_row_repeat, Forall_forall. intros v _.
  unfold transform1. rewrite decode_zeros. change (inject_Z 0) with 0. ring.
Qed.
Print Assumptions C10_zero_left.

Theorem C10_ones_right : forall vs, Forall (fun v => (1 <= vw v)%nat) vs ->
  Forall2 Qeq (transform_row Binary vs (repeat true (total_bits vs))) (map vr vs).
Proof.
  intros vs W. apply transform_row_repeat. eapply Forall_impl; [|exact W]. intros v Wv.
  unfold transform1. simpl decode. rewrite bits_to_int_ones, (vh_mul v Wv). ring.
Qed.
Print Assumptions C10_ones_right.

Theorem C10_in_box : forall k vs (bs : list bool),
  Forall (fun v => vl v <= vr v /\ (1 <= vw v)%nat) vs -> length bs = total_bits vs ->
  Forall2 in_box vs (transform_row k vs bs).
Proof. exact transform_in_box. Qed.
Print Assumptions C10_in_box.

Theorem C10_injective : forall k vs (bs1 bs2 : list bool), good vs ->
  length bs1 = total_bits vs -> length bs2 = total_bits vs ->
  Forall2 Qeq (transform_row k vs bs1) (transform_row k vs bs2) -> bs1 = bs2.
Proof. exact transform_injective. Qed.
Print Assumptions C10_injective.

(* inverse_transform (the repaired code: the variable's width is passed down) *)
(* the column-wise code computes, row by row, the concatenation of encode(rint((x-l)/h)) *)
Theorem C10_inverse_rowwise : forall k vs pop, Forall (fun r => length r = length vs) pop ->
  inverse_transform k vs pop = map (inverse_row k vs) pop.
Proof. exact inverse_transform_rows. Qed.
Print Assumptions C10_inverse_rowwise.

Theorem C10_inverse_fixed_length : forall k vs pop, Forall (fun r => length r = length vs) pop ->
  length (inverse_transform k vs pop) = length pop /\
  Forall (fun s => length s = total_bits vs) (inverse_transform k vs pop).
Proof.
  intros k vs pop H. rewrite inverse_transform_rows by auto. split; [apply map_length|].
  apply Forall_map. eapply Forall_impl; [|exact H]. intros. now apply inverse_row_length.
Qed.
Print Assumptions C10_inverse_fixed_length.

(* for x in the box, transform(inverse x) is a nearest grid point, at distance <= h/2 *)
Theorem C10_inverse_nearest : forall k vs xs, good vs -> Forall2 in_box vs xs ->
  Forall2 (fun v p => Qabs (snd p - fst p) <= vh v / 2 /\
                      forall j : Z, Qabs (snd p - fst p) <= Qabs (grid_point v j - fst p))
          vs (combine xs (transform_row k vs (inverse_row k vs xs))).
Proof. exact inverse_nearest. Qed.
Print Assumptions C10_inverse_nearest.

Theorem C10_roundtrip_grid : forall k vs kss, good vs -> Forall (Forall2 in_range vs) kss ->
  transform k vs (inverse_transform k vs (map (map2 grid_point vs) kss)) = map (map2 grid_point vs) kss.
Proof. exact roundtrip_grid_batch. Qed.
Print Assumptions C10_roundtrip_grid.

(* every batch of strings, whether or not it contains the largest code *)
Theorem C10_roundtrip_bits : forall k vs pop, good vs ->
  Forall (fun b : list bool => length b = total_bits vs) pop ->
  inverse_transform k vs (transform k vs pop) = pop.
Proof. exact roundtrip_bits_batch. Qed.
Print Assumptions C10_roundtrip_bits.

(* bits derived from a requested step h: grid at least that fine, and the least such width *)
Theorem C10_bits_from_step : forall l r h, l < r -> 0 < h ->
  let w := bits_from_h l r h in
  (1 <= w)%nat /\ h_from_bits l r w <= h /\
  (forall w', (1 <= w' < w)%nat -> h < h_from_bits l r w').
Proof. exact bits_from_step. Qed.
Print Assumptions C10_bits_from_step.

(* the code before the repair (width of int_to_bit taken from the batch maximum):
   the faithful model of that code returns strings of the wrong length and breaks the round trip.
   Witness: 4+4-bit grid on [0,15]^2 (h = 1), batch {(0,0),(1,3)}: 3 columns instead of 8. *)
Theorem C10_inverse_width_refuted :
  exists k vs pop, good vs /\ Forall (Forall2 in_box vs) pop /\
    ~ Forall (fun s => length s = total_bits vs) (inverse_transform_old k vs pop).
Proof.
  exists Binary, [mkvar 0 15 4; mkvar 0 15 4], [[0; 0]; [1; 3]]. split; [|split].
  - repeat constructor.
  - repeat constructor; simpl; discriminate.
  - intro H. inversion H as [|? ? H1 _]. vm_compute in H1. discriminate H1.
Qed.
Print Assumptions C10_inverse_width_refuted.

Theorem C10_roundtrip_bits_old_refuted :
  exists k vs pop, good vs /\ Forall (fun b : list bool => length b = total_bits vs) pop /\
    inverse_transform_old k vs (transform k vs pop) <> pop.
Proof.
  exists Gray, [mkvar 0 15 4; mkvar 0 15 4],
    [[false;false;false;false; false;false;false;false]; [false;false;false;true; false;false;true;false]].
  split; [|split].
  - repeat constructor.
  - repeat constructor.
  - vm_compute. discriminate.
Qed.
Print Assumptions C10_roundtrip_bits_old_refuted.

(* the hypotheses are satisfiable: the MLP trainer's grid (GrayCode, [-10,10], 16 bits) is good,
   has in-range indices and in-box points, and step 20/65535 *)
Example C10_nonvacuous :
  let vs := [mkvar (-10) 10 16; mkvar (-10) 10 16] in
  good vs /\ Forall2 in_range vs [0%Z; 65535%Z] /\ Forall2 in_box vs [-10; 3 # 7] /\
  total_bits vs = 32%nat /\ vh (mkvar (-10) 10 16) == 20 # 65535 /\
  bits_from_h 0 1 (1 # 10) = 4%nat.
Proof.
  assert (G : good_var (mkvar (-10) 10 16)) by (split; [reflexivity | simpl; lia]).
  assert (B : forall x, -10 <= x -> x <= 10 -> in_box (mkvar (-10) 10 16) x) by (intros; split; assumption).
  split; [repeat constructor; exact G|].
  split; [repeat constructor; vm_compute; discriminate|].
  split; [repeat constructor; apply B; vm_compute; discriminate|].
  split; [reflexivity|]. split; reflexivity.
Qed.
Print Assumptions C10_nonvacuous.

(* The tie to the source for the decoders.  SamplingGrid.bit_to_int (both call shapes) / _decode and GrayCode.gray_to_bit / bit_to_gray /
   _decode are whole-array numpy; they are translated on every run (harness/translate_code.py: static methods; 2 ** a, np.dot, np.flip,
   logical_xor(.accumulate), column slices and hstack have their meaning in theories/Py.v) and proved to be, row by row, the models
   the theorems above are about (a row read as booleans: non-zero = true). *)
From TF Require Import Py CodeEqC10.
From TFG Require Import GenCode.
Open Scope Z_scope.

Theorem C10_code_gray_to_bit : forall m, map bz (py_gray_to_bit m) = map (fun r => gray_to_bits (bz r)) m.
Proof. exact code_gray_to_bit. Qed.
Print Assumptions C10_code_gray_to_bit.

Theorem C10_code_bit_to_gray : forall m, Forall (fun r => r <> []) m ->
  map bz (py_bit_to_gray m) = map (fun r => bits_to_gray (bz r)) m.
Proof. exact code_bit_to_gray. Qed.
Print Assumptions C10_code_bit_to_gray.

Theorem C10_code_bit_to_int_default : forall (w : nat) m, m <> [] -> grid_rows w m ->
  py_bit_to_int_default m = map (fun r => bits_to_int (bz r)) m.
Proof.
  intros w m Hne Hm. change (py_bit_to_int_default m) with (py_bit_to_int_powers m (pow2s (arange (zlen (getR m 0))))).
  rewrite (grid_rows_zlen w) by auto. now apply (code_bit_to_int_powers w w).
Qed.
Print Assumptions C10_code_bit_to_int_default.

Theorem C10_code_SamplingGrid_decode : forall (w n : nat) m, m <> [] -> grid_rows w m -> (w <= n)%nat ->
  py_SamplingGrid_decode (pow2s (arange (Z.of_nat n))) m = map (fun r => decode Binary (bz r)) m.
Proof. exact code_SamplingGrid_decode. Qed.
Print Assumptions C10_code_SamplingGrid_decode.

Theorem C10_code_GrayCode_decode : forall (w n : nat) m, m <> [] -> Forall (fun r => length r = w) m -> (w <= n)%nat ->
  py_GrayCode_decode (pow2s (arange (Z.of_nat n))) m = map (fun r => decode Gray (bz r)) m.
Proof. exact code_GrayCode_decode. Qed.
Print Assumptions C10_code_GrayCode_decode.

(* the Gray round trip about the source's own two functions: encoding then decoding a batch of 0/1 rows gives the rows back *)
Theorem C10_src_gray_roundtrip : forall m, Forall (fun r => r <> []) m ->
  map bz (py_gray_to_bit (py_bit_to_gray m)) = map bz m.
Proof.
  intros m H. rewrite code_gray_to_bit, <- (map_map bz gray_to_bits), (code_bit_to_gray m H), map_map.
  apply map_ext. intro r. apply gray_to_bits_to_gray.
Qed.
Print Assumptions C10_src_gray_roundtrip.
