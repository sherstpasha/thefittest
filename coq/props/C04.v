(* C04 — a run is a deterministic function of its arguments and random_state.
   What a theorem can carry here (DESIGN §6 C04): (1) a decidable audit, over tables re-extracted from
   the source on every run, that every entropy source of algorithm code is one of the two compiled
   streams and that check_random_state seeds both; (2) the seeding model: a seeded run's draws do not
   depend on the generator state before it.  That the code has no OTHER influence is observed by the
   correspondence (perturbed re-runs), not proved. *)
From Coq Require Import String.
From TF Require Import Base Entropy EntropyProofs.
From TFG Require Import GenRngSites.

(* every primitive RNG call site lies in an njit-compiled function (so it reads one of the two streams
   numba_seed seeds); no clock / urandom / uuid entropy; numba_seed seeds both streams;
   check_random_state reseeds on the integer and on the RandomState branch, not on None, and rejects
   anything else *)
Definition all_njit (l : list (string * string * string * bool)) : bool := forallb (fun s => snd s) l.
Definition seeds_both (l : list (string * string * string)) : bool :=
  existsb (fun s => String.eqb (snd s) "random.seed" && String.eqb (snd (fst s)) "numba_seed") l &&
  existsb (fun s => String.eqb (snd s) "np.random.seed" && String.eqb (snd (fst s)) "numba_seed") l &&
  forallb (fun s => String.eqb (snd (fst s)) "numba_seed") l.
Definition crs_ok (l : list (string * bool * bool)) : bool :=
  match l with
  | [(t0, c0, r0); (t1, c1, r1); (t2, c2, r2); (t3, c3, r3)] =>
      String.eqb t0 "seed is None" && negb c0 && negb r0 &&
      String.eqb t1 "isinstance(seed, (numbers.Integral, np.integer))" && c1 && negb r1 &&
      String.eqb t2 "isinstance(seed, np.random.RandomState)" && c2 && negb r2 &&
      String.eqb t3 "else" && negb c3 && r3
  | _ => false
  end.

Theorem C04_all_sites_seeded :
  all_njit rng_sites = true /\ other_entropy = [] /\ seeds_both seed_sites = true /\ crs_ok crs_branches = true /\
  (0 < List.length rng_sites)%nat.
Proof. split; [vm_compute; reflexivity|]. split; [vm_compute; reflexivity|]. split; [vm_compute; reflexivity|]. split; [vm_compute; reflexivity|]. vm_compute. lia. Qed.
Print Assumptions C04_all_sites_seeded.

Theorem C04_prefix_independence : forall (stream_py stream_np : Z -> nat -> draw) a which g1 g2, a <> SNone ->
  take stream_py stream_np which (check_random_state a g1) = take stream_py stream_np which (check_random_state a g2).
Proof. intros sp sn a which g1 g2 H. now rewrite (reseed_forgets a g1 g2 H). Qed.
Print Assumptions C04_prefix_independence.

Theorem C04_seed_determines_streams : forall z g, (0 <= z < 4294967296)%Z ->
  check_random_state (SInt z) g = check_random_state (SState z) g.
Proof. intros z g H. cbn. now rewrite Z.mod_small. Qed.
Print Assumptions C04_seed_determines_streams.

Theorem C04_both_streams_seeded : forall a g, a <> SNone ->
  snd (g_py (check_random_state a g)) = O /\ snd (g_np (check_random_state a g)) = O /\
  fst (g_py (check_random_state a g)) = fst (g_np (check_random_state a g)).
Proof. destruct a; [congruence| |]; intros g _; cbn; auto. Qed.
Print Assumptions C04_both_streams_seeded.

Example C04_nonvacuous :
  check_random_state (SInt 42) {| g_py := (7%Z, 13%nat); g_np := (9%Z, 2%nat) |} =
  {| g_py := (42%Z, O); g_np := (42%Z, O) |}.
Proof. reflexivity. Qed.
Print Assumptions C04_nonvacuous.
