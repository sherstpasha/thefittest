(* C02 — best-so-far never regresses; elitism and greedy replacement retain it. *)
From TF Require Import Base EALoop EALoopProofs EALoopProofs2.
Open Scope Q_scope.

Theorem C02_best_monotone :
  forall (G P : Type) (g2p : G -> P) (nf : P -> Q) (k : kind) (elitism keep_history : bool)
         (var : state G P -> list G) (n : nat),
  (0 < n)%nat -> (forall st, length (var st) = n) ->
  forall (st : state G P) (gs : list G) (b : indiv G P),
  Inv G P g2p nf elitism keep_history n st -> length gs = n -> best st = Some b ->
  exists b', best (step G P g2p nf k elitism keep_history false st gs) = Some b' /\ ifit b <= ifit b'.
Proof. intros G P g2p nf k e kh var n Hn _. exact (best_monotone G P g2p nf k e kh n Hn). Qed.
Print Assumptions C02_best_monotone.

(* with elitism the population at the end of each generation contains the best-so-far (last slot) *)
Theorem C02_elite_present :
  forall (G P : Type) (g2p : G -> P) (nf : P -> Q) (k : kind) (elitism keep_history : bool)
         (var : state G P -> list G) (n : nat),
  (0 < n)%nat -> (forall st, length (var st) = n) ->
  forall (st : state G P) (gs : list G) (first : bool), elitism = true -> length gs = n ->
  (first = true /\ st = init_state G P \/ first = false /\ Inv G P g2p nf elitism keep_history n st) ->
  exists b, best (step G P g2p nf k elitism keep_history first st gs) = Some b /\
    last (pop (step G P g2p nf k elitism keep_history first st gs)) b = b /\
    In b (pop (step G P g2p nf k elitism keep_history first st gs)).
Proof.
  intros G P g2p nf k e kh var n Hn _ st gs first He Hgs Hst.
  exact (Inv_elite (step_inv G P g2p nf k e kh n Hn first st gs Hgs Hst) He).
Qed.
Print Assumptions C02_elite_present.

(* greedy family: every slot's fitness is non-decreasing across a generation (elitism included) *)
Theorem C02_slot_monotone :
  forall (G P : Type) (g2p : G -> P) (nf : P -> Q) (k : kind) (elitism keep_history : bool)
         (var : state G P -> list G) (n : nat),
  (0 < n)%nat -> (forall st, length (var st) = n) ->
  forall (st : state G P) (gs : list G) (i : nat) (d : indiv G P),
  k = Greedy -> Inv G P g2p nf elitism keep_history n st -> length gs = n -> (i < n)%nat ->
  ifit (nth i (pop st) d) <= ifit (nth i (pop (step G P g2p nf k elitism keep_history false st gs)) d).
Proof. intros G P g2p nf k e kh var n Hn _. exact (slot_monotone G P g2p nf k e kh n Hn). Qed.
Print Assumptions C02_slot_monotone.

(* a slot is overwritten only by a trial that is at least as good *)
Theorem C02_slot_replaced_only_by_better :
  forall (G P : Type) (ts ps : list (indiv G P)) (i : nat) (d : indiv G P), (i < length ps)%nat ->
  let r := greedy G P ts ps in
  nth i r d = nth i ps d \/ (nth i r d = nth i ts d /\ ifit (nth i ps d) <= ifit (nth i ts d)).
Proof. exact greedy_slot. Qed.
Print Assumptions C02_slot_replaced_only_by_better.

(* the fitness stored for a slot is the value the objective returned for the individual stored there *)
Theorem C02_slot_consistent :
  forall (G P : Type) (g2p : G -> P) (nf : P -> Q) (elitism keep_history : bool) (n : nat) (st : state G P),
  Inv G P g2p nf elitism keep_history n st ->
  forall p, In p (pop st) -> iph p = g2p (ig p) /\ ifit p = nf (iph p).
Proof.
  intros G P g2p nf e kh n st Hi p Hin. destruct (Inv_eval Hi p (Inv_pop Hi p Hin)) as (g & ->). split; reflexivity.
Qed.
Print Assumptions C02_slot_consistent.

Example C02_nonvacuous :
  let var := fun st : state Z Z => [2; 9]%Z in
  let st := fit Z Z (fun g => g) (fun p => inject_Z p) Greedy true false None None var 2 [3; 4]%Z in
  map ifit (pop st) = [3 # 1; 9 # 1] /\ option_map ifit (best st) = Some (9 # 1).
Proof. vm_compute. auto. Qed.
Print Assumptions C02_nonvacuous.

(* The greedy family: DifferentialEvolution's overrides _get_init_population / _get_new_population (trial evaluation and the
   `>=` replacement mask) / _from_population_g_to_fitness, generated into gen/GenLoop.v (the trial vectors are an oracle: the
   variation operators are C07's subject), are simulated by `EALoop.step Greedy` / `EALoop.fit Greedy` on every field the code
   keeps: theories/CodeEqGreedy.v. *)
From TF Require Import Py CodeEqLoop CodeEqStep CodeEqGreedy.
From TFG Require Import GenLoop.

Theorem C02_code_step_greedy : forall (G P : Type) (dG : G) (dP : P) (g2p : G -> P) (f : P -> Q) par_value
    (trials : EvolutionaryAlgorithm G P -> list G) (self : EvolutionaryAlgorithm G P) (st : state G P),
  sim G P dG dP self st -> pop st <> [] -> (ea_n_jobs G P self <= 1)%Z ->
  sim G P dG dP (de_from G P dG dP (de_new G P g2p f par_value trials self))
      (step G P g2p (nf_of G P f self) Greedy (ea_elitism G P self) (ea_keep_history G P self) false st (trials self)).
Proof. exact code_step_greedy. Qed.
Print Assumptions C02_code_step_greedy.

Theorem C02_code_fit_greedy : forall (G P : Type) (dG : G) (dP : P) (g2p : G -> P) (f : P -> Q) par_value
    (trials : EvolutionaryAlgorithm G P -> list G) (var : state G P -> list G) (self0 : EvolutionaryAlgorithm G P) (gs0 : list G),
  sim G P dG dP self0 (init_state G P) -> gs0 <> [] ->
  (ea_n_jobs G P self0 <= 1)%Z -> ea_aim G P self0 <> NegInf -> fst (ea_on_generation G P self0) = true ->
  (forall n, ea_no_increase_num G P self0 = Some n -> (0 <= n)%Z) ->
  (forall s st, sim G P dG dP s st -> trials s = var st) ->
  sim G P dG dP
      (py_EvolutionaryAlgorithm_fit G P (de_init G P g2p f par_value gs0) (de_new G P g2p f par_value trials) (de_from G P dG dP) self0)
      (fit G P g2p (nf_of G P f self0) Greedy (ea_elitism G P self0) (ea_keep_history G P self0)
           (abs_aim (ea_aim G P self0)) (abs_nin (ea_no_increase_num G P self0)) var (Z.to_nat (ea_iters G P self0)) gs0).
Proof. exact code_fit_greedy. Qed.
Print Assumptions C02_code_fit_greedy.

(* after the generated _get_new_population every slot holds its own trial iff trial >= parent, else its parent *)
Theorem C02_src_greedy_slots : forall (G P : Type) (dG : G) (dP : P) (g2p : G -> P) (f : P -> Q) par_value
    (trials : EvolutionaryAlgorithm G P -> list G) (self : EvolutionaryAlgorithm G P) (st : state G P),
  sim G P dG dP self st -> (ea_n_jobs G P self <= 1)%Z ->
  let batch := map (eval G P g2p (nf_of G P f self)) (trials self) in
  let self' := de_new G P g2p f par_value trials self in
  ea_fitness_i G P self' = map ifit (greedy G P batch (pop st)) /\
  ea_population_g_i G P self' = map ig (greedy G P batch (pop st)) /\
  ea_calls G P self' = (ea_calls G P self + Z.of_nat (length batch))%Z.
Proof.
  intros G P dG dP g2p f par_value trials self st S Hnj. cbv zeta.
  rewrite (de_new_eq G P dG dP g2p f par_value trials self st S Hnj). repeat split.
Qed.
Print Assumptions C02_src_greedy_slots.

(* SHADE, jDE and SHAGA override _get_new_population (generated into gen/GenLoop.v as functions on (base record, own state), the
   random parts as oracles).  On the base record each of them IS DifferentialEvolution's greedy step with its own trial vectors
   (theories/CodeEqAdaptStep.v), hence: after the step every slot holds its own trial iff trial >= parent, else its parent, and
   exactly the trials were counted as fitness calls. *)
From TF Require Import CodeEqAdaptStep.

Theorem C02_code_shade_greedy : forall (G P : Type) (dG : G) (dP : P) (g2p : G -> P) (f : P -> Q) par_value
    sh_trials sh_generate sh_append (self : SHADE G P) (st : state G P),
  sim G P dG dP (sh_ea G P self) st -> (ea_n_jobs G P (sh_ea G P self) <= 1)%Z ->
  let batch := map (eval G P g2p (nf_of G P f (sh_ea G P self))) (sh_trials (sh_pre G P sh_generate self)) in
  sh_ea G P (sh_new G P g2p f par_value sh_trials sh_generate sh_append self)
  = with_pop G P (sh_ea G P self) (greedy G P batch (pop st)) (Z.of_nat (length batch)).
Proof.
  intros G P dG dP g2p f par_value sh_trials sh_generate sh_append self st S Hn batch. rewrite code_shade_base.
  exact (de_new_eq G P dG dP g2p f par_value (fun _ => sh_trials (sh_pre G P sh_generate self)) (sh_ea G P self) st S Hn).
Qed.
Print Assumptions C02_code_shade_greedy.

Theorem C02_code_jde_greedy : forall (G P : Type) (dG : G) (dP : P) (g2p : G -> P) (f : P -> Q) par_value
    jd_trials jd_mutate_F jd_mutate_CR (self : jDE G P) (st : state G P),
  sim G P dG dP (jd_ea G P self) st -> (ea_n_jobs G P (jd_ea G P self) <= 1)%Z ->
  let batch := map (eval G P g2p (nf_of G P f (jd_ea G P self))) (jd_trials self (jd_mutate_F self) (jd_mutate_CR self)) in
  jd_ea G P (jd_new G P g2p f par_value jd_trials jd_mutate_F jd_mutate_CR self)
  = with_pop G P (jd_ea G P self) (greedy G P batch (pop st)) (Z.of_nat (length batch)).
Proof.
  intros G P dG dP g2p f par_value jd_trials jd_mutate_F jd_mutate_CR self st S Hn batch. rewrite code_jde_base.
  exact (de_new_eq G P dG dP g2p f par_value (fun _ => jd_trials self (jd_mutate_F self) (jd_mutate_CR self)) (jd_ea G P self) st S Hn).
Qed.
Print Assumptions C02_code_jde_greedy.

Theorem C02_code_shaga_greedy : forall (G P : Type) (dG : G) (dP : P) (g2p : G -> P) (f : P -> Q) par_value
    sg_trials sg_generate (self : SHAGA G P) (st : state G P),
  sim G P dG dP (sg_ea G P self) st -> (ea_n_jobs G P (sg_ea G P self) <= 1)%Z ->
  let batch := map (eval G P g2p (nf_of G P f (sg_ea G P self))) (sg_trials (sg_pre G P sg_generate self)) in
  sg_ea G P (sg_new G P g2p f par_value sg_trials sg_generate self)
  = with_pop G P (sg_ea G P self) (greedy G P batch (pop st)) (Z.of_nat (length batch)).
Proof.
  intros G P dG dP g2p f par_value sg_trials sg_generate self st S Hn batch. rewrite code_shaga_base.
  exact (de_new_eq G P dG dP g2p f par_value (fun _ => sg_trials (sg_pre G P sg_generate self)) (sg_ea G P self) st S Hn).
Qed.
Print Assumptions C02_code_shaga_greedy.
