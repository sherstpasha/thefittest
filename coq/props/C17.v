(* C17 — recorded history is complete, immutable and isolated from the caller: completeness in the loop model and on the
   generated run, immutability and isolation in the aliasing model theories/EAStore.v. *)
From TF Require Import Base EALoop EALoopProofs EALoopProofs2.
From TF Require EAStore EAStoreProofs.
Open Scope Q_scope.

(* exactly one entry per executed generation with keep_history; nothing recorded without it *)
Theorem C17_one_entry_per_generation :
  forall (G P : Type) (g2p : G -> P) (nf : P -> Q) (k : kind) (elitism keep_history : bool)
         (aim : option Q) (no_increase_num : option nat) (var : state G P -> list G) (n : nat),
  (0 < n)%nat -> (forall st, length (var st) = n) ->
  forall iters gs0, (1 <= iters)%nat -> length gs0 = n ->
  let st := fit G P g2p nf k elitism keep_history aim no_increase_num var iters gs0 in
  (keep_history = true -> length (hist st) = gens st) /\ (keep_history = false -> hist st = []).
Proof. exact history_complete. Qed.
Print Assumptions C17_one_entry_per_generation.

(* max_fitness[i] is the maximum of fitness[i]; max_g[i], max_ph[i] the member at the first arg-max *)
Theorem C17_entries_consistent :
  forall (G P : Type) (g2p : G -> P) (nf : P -> Q) (k : kind) (elitism keep_history : bool)
         (aim : option Q) (no_increase_num : option nat) (var : state G P -> list G) iters gs0,
  Forall (fun s : snapshot G P =>
            s_max s = best_of G P (s_pop s) /\
            forall m, s_max s = Some m -> In m (s_pop s) /\ Forall (fun x => ifit x <= ifit m) (s_pop s))
         (hist (fit G P g2p nf k elitism keep_history aim no_increase_num var iters gs0)).
Proof.
  intros G P g2p nf k e kh aim nin var iters gs0. unfold fit.
  apply (loop_ind G P g2p nf k e kh aim nin var (fun st => Forall (snapshot_ok G P) (hist st))); [intros st H|]; apply step_hist_ok; [exact H|constructor].
Qed.
Print Assumptions C17_entries_consistent.

(* later generations never alter an entry: the history only grows at its end *)
Theorem C17_history_prefix :
  forall (G P : Type) (g2p : G -> P) (nf : P -> Q) (k : kind) (elitism keep_history : bool)
         (st : state G P) (gs : list G) (first : bool),
  exists ext, hist (step G P g2p nf k elitism keep_history first st gs) = hist st ++ ext.
Proof.
  intros G P g2p nf k e kh st gs first. rewrite step_finish. unfold model_finish. cbn [hist].
  destruct kh; [eauto|exists []; now rewrite app_nil_r].
Qed.
Print Assumptions C17_history_prefix.

(* aliasing model (theories/EAStore.v): every object stored in the history and every caller-owned
   object (init_population rows, *_args values) keeps its identity and its contents under ANY sequence
   of optimizer operations (greedy in-place overwrite, elitism write, re-binding of the population,
   record replacement, further snapshots, get_fittest(), caller writes into returned objects) *)
Theorem C17_snapshot_immutable_and_caller_untouched : forall (V : Type) (dflt : V) ops (s : EAStore.st V) l,
  EAStore.wf V s -> In l (EAStore.hist V s ++ EAStore.caller V s) ->
  In l (EAStore.hist V (EAStore.run V dflt s ops) ++ EAStore.caller V (EAStore.run V dflt s ops)) /\
  EAStore.rd V dflt (EAStore.heap V (EAStore.run V dflt s ops)) l = EAStore.rd V dflt (EAStore.heap V s) l.
Proof. exact EAStoreProofs.history_immutable. Qed.
Print Assumptions C17_snapshot_immutable_and_caller_untouched.

(* objects returned by get_fittest() can be overwritten by the caller without affecting the record *)
Theorem C17_get_fittest_isolated : forall (V : Type) (dflt : V) (s : EAStore.st V) k v, EAStore.wf V s ->
  let s1 := EAStore.step V dflt s (EAStore.Get V) in
  forall l, In l (EAStore.rcd V s) -> EAStore.rd V dflt (EAStore.heap V (EAStore.step V dflt s1 (EAStore.CallerWrite V k v))) l = EAStore.rd V dflt (EAStore.heap V s) l.
Proof.
  intros V dflt s k v Hw.
  exact (proj2 (EAStoreProofs.record_private V dflt [EAStore.Get V; EAStore.CallerWrite V k v] s Hw eq_refl)).
Qed.
Print Assumptions C17_get_fittest_isolated.

Example C17_store_nonvacuous :
  let s0 := {| EAStore.heap := [10; 20; 30; 40]%Z; EAStore.pop := [0; 1]%nat; EAStore.rcd := []; EAStore.hist := []; EAStore.caller := [2; 3]%nat; EAStore.ret := [] |} in
  let s := EAStore.run Z 0%Z s0 [EAStore.ReplaceRecord Z 1; EAStore.Snapshot Z; EAStore.PopWrite Z 1 99%Z; EAStore.ElitismWrite Z; EAStore.Get Z; EAStore.CallerWrite Z 0 (-1)%Z] in
  map (EAStore.rd Z 0%Z (EAStore.heap Z s)) (EAStore.rcd Z s) = [20%Z] /\ map (EAStore.rd Z 0%Z (EAStore.heap Z s)) (EAStore.hist Z s) = [10; 20]%Z /\
  map (EAStore.rd Z 0%Z (EAStore.heap Z s)) (EAStore.pop Z s) = [10; 20]%Z /\ map (EAStore.rd Z 0%Z (EAStore.heap Z s)) (EAStore.ret Z s) = [(-1)%Z].
Proof. vm_compute. auto. Qed.
Print Assumptions C17_store_nonvacuous.

Example C17_nonvacuous :
  let var := fun st : state Z Z => [Z.of_nat (gens st); 1]%Z in
  let st := fit Z Z (fun g => g) (fun p => inject_Z p) Generational true true None None var 3 [4; 5]%Z in
  length (hist st) = 3%nat /\ map (fun s => option_map ifit (s_max s)) (hist st) = [Some (5 # 1); Some (1 # 1); Some (2 # 1)].
Proof. vm_compute. auto. Qed.
Print Assumptions C17_nonvacuous.

(* On the run generated from base/_ea.py (generational family, theories/CodeEqStep.v) the history the code keeps is, entry by
   entry, the model's history: one entry per executed generation with keep_history, none without. *)
From TF Require Import Py CodeEqLoop CodeEqStep.
From TFG Require Import GenLoop.

Theorem C17_src_fit_history : forall (G P : Type) (dG : G) (dP : P) (g2p : G -> P) (f : P -> Q) par_value
    (newpop : EvolutionaryAlgorithm G P -> list G) (var : state G P -> list G) (self0 : EvolutionaryAlgorithm G P) (gs0 : list G) (n : nat),
  sim G P dG dP self0 (init_state G P) -> (0 < n)%nat -> length gs0 = n -> (forall st, length (var st) = n) -> (1 <= ea_iters G P self0)%Z ->
  (ea_n_jobs G P self0 <= 1)%Z -> ea_aim G P self0 <> NegInf -> fst (ea_on_generation G P self0) = true ->
  (forall m, ea_no_increase_num G P self0 = Some m -> (0 <= m)%Z) ->
  (forall s st, sim G P dG dP s st -> newpop s = var st) ->
  let self := py_EvolutionaryAlgorithm_fit G P (fun s => set_pop_g G P s gs0) (fun s => set_pop_g G P s (newpop s))
                                           (from_pop G P dG dP g2p f par_value) self0 in
  let st := fit G P g2p (nf_of G P f self0) Generational (ea_elitism G P self0) (ea_keep_history G P self0)
                (abs_aim (ea_aim G P self0)) (abs_nin (ea_no_increase_num G P self0)) var (Z.to_nat (ea_iters G P self0)) gs0 in
  ea_stats G P self = map (entry_of G P dG dP) (hist st) /\
  (ea_keep_history G P self0 = true -> length (ea_stats G P self) = gens st) /\
  (ea_keep_history G P self0 = false -> ea_stats G P self = []).
Proof. exact src_fit_history. Qed.
Print Assumptions C17_src_fit_history.
