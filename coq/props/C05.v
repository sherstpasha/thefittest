(* C05 — minimising f is exactly maximising -f. *)
From Coq Require Import String.
From TF Require Import Base EALoop EALoopProofs2.
From TFG Require Import GenMisc.
Open Scope Q_scope.

(* the whole final state — every population, the record, counters, evaluated individuals, history,
   the stop generation — is identical; optimal_value v / -v stop both runs at the same generation *)
Theorem C05_dual :
  forall G P (g2p : G -> P) (f : P -> Q) k elitism keep_history v err nin
         (var : state G P -> list G) iters gs0,
  fit G P g2p (norm_fit true f) k elitism keep_history (aim_of true (Some v) err) nin var iters gs0 =
  fit G P g2p (norm_fit false (fun x => - f x)) k elitism keep_history (aim_of false (Some (- v)) err) nin var iters gs0.
Proof. exact dual. Qed.
Print Assumptions C05_dual.

Theorem C05_dual_no_target :
  forall G P (g2p : G -> P) (f : P -> Q) k elitism keep_history nin (var : state G P -> list G) iters gs0,
  fit G P g2p (norm_fit true f) k elitism keep_history None nin var iters gs0 =
  fit G P g2p (norm_fit false (fun x => - f x)) k elitism keep_history None nin var iters gs0.
Proof. intros. apply fit_ext. intros p. apply norm_fit_dual. Qed.
Print Assumptions C05_dual_no_target.

(* the only two places where the flag enters: the normalised fitness and the aim *)
Theorem C05_norm_fit_dual : forall P (f : P -> Q) p, norm_fit true f p = norm_fit false (fun x => - f x) p.
Proof. intros P f p. exact (norm_fit_dual f p). Qed.
Print Assumptions C05_norm_fit_dual.

Theorem C05_aim_dual : forall v err, aim_of true (Some v) err = aim_of false (Some (- v)) err.
Proof. exact aim_dual. Qed.
Print Assumptions C05_aim_dual.

(* the attribute `_sign` is read only where the model says the flag enters: the aim, the normalised
   fitness, the progress printer (the three readers in base/_tree.py are the unrelated string field
   Node._sign).  The reader list is re-extracted from the source on every run. *)
Definition allowed_sign_readers : list (string * string) := [
  ("thefittest.base._ea", "EvolutionaryAlgorithm._get_aim");
  ("thefittest.base._ea", "EvolutionaryAlgorithm._get_fitness");
  ("thefittest.base._ea", "EvolutionaryAlgorithm._show_progress");
  ("thefittest.base._tree", "FunctionalNode.__init__");
  ("thefittest.base._tree", "Node.__str__");
  ("thefittest.base._tree", "Tree.get_graph") ]%string.
Theorem C05_single_point_of_sign :
  forallb (fun r => existsb (fun a => String.eqb (fst a) (fst r) && String.eqb (snd a) (snd r)) allowed_sign_readers)
          sign_readers = true.
Proof. vm_compute. reflexivity. Qed.
Print Assumptions C05_single_point_of_sign.

Example C05_nonvacuous :
  let var := fun st : state Z Z => [Z.of_nat (gens st); 7]%Z in
  let run := fun mn f => fit Z Z (fun g => g) (norm_fit mn f) Greedy true true None (Some 2%nat) var 6 [4; 5]%Z in
  gens (run true (fun p => inject_Z p)) = gens (run false (fun p => - inject_Z p)) /\
  gens (run true (fun p => inject_Z p)) = 4%nat.
Proof. vm_compute. auto. Qed.
Print Assumptions C05_nonvacuous.
