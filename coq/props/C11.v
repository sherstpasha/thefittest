(* C11 — selection and sampling primitives honour their contracts.
   Statements; each is a theorem of theories/RandomPrimsProofs{,2}.v, SattoloCycle.v or CodeEqC11.v, or follows from those in a
   line or two. *)
From TF Require Import Base RandomPrims RandomPrimsProofs RandomPrimsProofs2 SattoloCycle.
From Coq Require Import Permutation.
Open Scope Q_scope.

(* proportional / rank selection: exactly [quantity] indices, all valid *)
Theorem C11_selection_count_range_weighted : forall w q ds r ds', w <> [] ->
  random_weighted_sample w q true ds = Some (r, ds') ->
  length r = q /\ Forall (fun v => (0 <= v < Z.of_nat (length w))%Z) r.
Proof. exact weighted_selection_count_range. Qed.
Print Assumptions C11_selection_count_range_weighted.

(* tournament selection: exactly [quantity] valid indices, none among the tour-1 strictly worst *)
Theorem C11_selection_count_range_tournament : forall fitness tour quantity ds ws ds',
  valid_draws ds -> (0 < tour)%nat -> tournament_selection fitness tour quantity ds = Some (ws, ds') ->
  length ws = quantity /\
  Forall (fun w => (0 <= w < Z.of_nat (length fitness))%Z /\ (tour <= count_le fitness w)%nat) ws.
Proof. exact tournament_selection_spec. Qed.
Print Assumptions C11_selection_count_range_tournament.

(* the winner is a fittest member of tour_size distinct contestants *)
Theorem C11_tournament : forall fitness tour ds w ds',
  valid_draws ds -> (0 < tour)%nat -> tournament_one fitness tour ds = Some (w, ds') ->
  exists t, length t = tour /\ NoDup t /\
    Forall (fun v => (0 <= v < Z.of_nat (length fitness))%Z) t /\
    In w t /\
    Forall (fun j => nth (Z.to_nat j) fitness 0 <= nth (Z.to_nat w) fitness 0) t /\
    valid_draws ds'.
Proof. exact tournament_one_spec. Qed.
Print Assumptions C11_tournament.

Theorem C11_tournament_full_is_global : forall fitness ds w ds',
  valid_draws ds -> (0 < length fitness)%nat ->
  tournament_one fitness (length fitness) ds = Some (w, ds') ->
  Forall (fun x => x <= nth (Z.to_nat w) fitness 0) fitness.
Proof. exact tournament_full_is_global. Qed.
Print Assumptions C11_tournament_full_is_global.

(* interval search: everything before the returned index is < v, and v <= c_i (or i is the last) *)
Theorem C11_interval : forall v c, c <> [] -> sorted c ->
  let i := bsi v c in
  (forall j, (j < i)%nat -> nth j c 0 < v) /\ (v <= nth i c 0 \/ i = (length c - 1)%nat).
Proof. exact bsi_first. Qed.
Print Assumptions C11_interval.

(* a uniform draw u is mapped to the index whose cumulative-weight interval contains u*S *)
Theorem C11_weighted_pick : forall w u, w <> [] -> nonneg w -> 0 < total w -> 0 <= u -> u < 1 ->
  let i := weighted_pick w u in
  let c := cumsum w in
  (i < length w)%nat /\ (forall j, (j < i)%nat -> nth j c 0 < total w * u) /\ total w * u <= nth i c 0.
Proof. intros w u Hne Hw HS _. exact (weighted_pick_interval w u Hne Hw HS). Qed.
Print Assumptions C11_weighted_pick.

Theorem C11_zero_weight_excluded : forall w u, w <> [] -> nonneg w -> 0 < total w -> 0 < u -> u < 1 ->
  nth (weighted_pick w u) w 0 > 0.
Proof. exact zero_weight_excluded. Qed.
Print Assumptions C11_zero_weight_excluded.

(* sampling: requested length, in range, distinct without replacement *)
Theorem C11_sample_distinct : forall n q replace ds r ds',
  valid_draws ds -> random_sample n q replace ds = Some (r, ds') ->
  length r = q /\ Forall (fun v => (0 <= v < n)%Z) r /\ (replace = false -> NoDup r).
Proof. exact random_sample_spec. Qed.
Print Assumptions C11_sample_distinct.

Theorem C11_randint_range : forall low high, (low < high)%Z -> forall size ds r ds',
  valid_draws ds -> randint low high size ds = Some (r, ds') ->
  length r = size /\ Forall (fun v => (low <= v < high)%Z) r.
Proof. exact randint_range. Qed.
Print Assumptions C11_randint_range.

(* Sattolo: the output is a permutation of the input *)
Theorem C11_sattolo_permutation : forall (arr : list Z) ds r ds',
  valid_draws ds -> sattolo 0%Z arr ds = Some (r, ds') -> Permutation arr r.
Proof. exact (sattolo_perm 0%Z). Qed.
Print Assumptions C11_sattolo_permutation.

(* ... and that permutation is CYCLIC: the output is the input read through a map on positions that
   is one cycle through all n positions — for every length and every outcome of the draws *)
Theorem C11_sattolo_cyclic : forall (arr : list Z) ds r ds',
  valid_draws ds -> arr <> [] -> sattolo 0%Z arr ds = Some (r, ds') ->
  exists pi, cyclic_on (length arr - 1) pi /\ length r = length arr /\
    forall p, (p < length arr)%nat -> nth p r 0%Z = nth (pi p) arr 0%Z.
Proof. exact (sattolo_cyclic 0%Z). Qed.
Print Assumptions C11_sattolo_cyclic.

Theorem C11_cyclic_on_meaning : forall m pi, cyclic_on m pi <->
  (forall p, (p <= m)%nat -> (pi p <= m)%nat) /\ (forall p, (m < p)%nat -> pi p = p) /\
  (forall a b, (a <= m)%nat -> (b <= m)%nat -> exists k, iter pi k a = b).
Proof. intros. reflexivity. Qed.
Print Assumptions C11_cyclic_on_meaning.

Theorem C11_sattolo_no_fixed_point : forall (arr : list Z) ds r ds' p,
  valid_draws ds -> NoDup arr -> (2 <= length arr)%nat -> (p < length arr)%nat ->
  sattolo 0%Z arr ds = Some (r, ds') -> nth p r 0%Z <> nth p arr 0%Z.
Proof. exact (sattolo_no_fixed_point 0%Z). Qed.
Print Assumptions C11_sattolo_no_fixed_point.

(* p-best: argsort_k puts, in its first k slots, indices whose values dominate all later ones;
   find_pbest_id returns exactly max(1, floor(p n)) distinct indices, each at least as fit as
   every index outside the set *)
Theorem C11_argsort_k : forall a k, (k <= length a)%nat ->
  let r := argsort_k a k in
  length r = length a /\ Permutation (seq 0 (length a)) r /\
  (forall p q, (p < k)%nat -> (p <= q < length a)%nat -> nth (nth q r O) a 0 <= nth (nth p r O) a 0).
Proof. exact argsort_k_spec. Qed.
Print Assumptions C11_argsort_k.

Theorem C11_pbest : forall a p, (pbest_count p (length a) <= length a)%nat ->
  let s := find_pbest_id a p in
  length s = pbest_count p (length a) /\ NoDup s /\
  (forall x, In x s -> (x < length a)%nat) /\
  (forall x y, In x s -> (y < length a)%nat -> ~ In y s -> nth y a 0 <= nth x a 0).
Proof. exact find_pbest_spec. Qed.
Print Assumptions C11_pbest.

(* the code before the repair: max_id not reset per iteration.  The p-best set of [1;4;9;3] with two slots contained
   index 0 (the smallest value), for every value of the uninitialised local *)
Theorem C11_argsort_k_stale_refuted :
  forall garbage, exists a k, (k <= length a)%nat /\
    ~ (forall p q, (p < k)%nat -> (p <= q < length a)%nat ->
        nth (nth q (argsort_k_stale garbage a k) O) a 0 <= nth (nth p (argsort_k_stale garbage a k) O) a 0).
Proof.
  intros g. exists [1; 4; 9; 3], 2%nat. split; [simpl; lia|]. intro H.
  specialize (H 1%nat 2%nat ltac:(lia) ltac:(simpl; lia)).
  assert (E : argsort_k_stale g [1; 4; 9; 3] 2 = [2; 0; 1; 3]%nat) by reflexivity.
  rewrite E in H. cbn in H. lra.
Qed.
Print Assumptions C11_argsort_k_stale_refuted.

Theorem C11_minmax : forall l, l <> [] ->
  let s := minmax_scale l in
  length s = length l /\ Forall (fun y => 0 <= y /\ y <= 1) s /\
  (Qmax_list l == Qmin_list l -> Forall (fun y => y = 1) s) /\
  (~ Qmax_list l == Qmin_list l ->
     (forall i, (i < length l)%nat -> nth i l 0 == Qmin_list l -> nth i s 0 == 0) /\
     (forall i, (i < length l)%nat -> nth i l 0 == Qmax_list l -> nth i s 0 == 1)).
Proof. exact minmax_scale_spec. Qed.
Print Assumptions C11_minmax.

Example C11_nonvacuous :
  tournament_one [1; 4; 9; 3] 2 [DI 4 0; DI 4 0; DI 4 3] = Some (3%Z, []) /\
  weighted_pick [1; 0; 2; 1] (1 # 2) = 2%nat /\
  find_pbest_id [1; 4; 9; 3] (1 # 2) = [2; 1]%nat.
Proof. vm_compute. auto. Qed.
Print Assumptions C11_nonvacuous.

(* The tie to the source.  gen/GenCode.v is regenerated on every run from the bodies of the functions in
   utils/__init__.py, utils/random.py and utils/selections.py (harness/translate_code.py; semantics of the
   subset: theories/Py.v).  The models the theorems above are about are EQUAL to those generated
   definitions, for every input and every list of draws; the headline theorems are restated about the
   generated definitions themselves (the src_ theorems). *)
From Coq Require Import String.
From TF Require Import Py CodeEqC11.
From TFG Require Import GenCode.
Open Scope Z_scope.

Theorem C11_code_check_for_value : forall v arr (k : nat), (k <= length arr)%nat ->
  py_check_for_value v arr (Z.of_nat k) = memZ v (firstn k arr).
Proof. exact code_check_for_value. Qed.
Print Assumptions C11_code_check_for_value.

Theorem C11_code_random_sample : forall n (q : nat) replace ds, replace = true \/ Z.of_nat q <= n ->
  py_random_sample n (Z.of_nat q) replace ds = random_sample n q replace ds.
Proof. exact code_random_sample. Qed.
Print Assumptions C11_code_random_sample.

Theorem C11_code_binary_search_interval : forall v c ds, c <> [] ->
  py_binary_search_interval v c ds = Some (Z.of_nat (bsi v c), ds).
Proof. exact code_binary_search_interval. Qed.
Print Assumptions C11_code_binary_search_interval.

Theorem C11_code_random_weighted_sample : forall w (q : nat) replace ds,
  w <> [] -> replace = true \/ (q <= length w)%nat ->
  py_random_weighted_sample w (Z.of_nat q) replace ds = random_weighted_sample w q replace ds.
Proof. exact code_random_weighted_sample. Qed.
Print Assumptions C11_code_random_weighted_sample.

Theorem C11_code_flip_coin : forall p ds, py_flip_coin p ds = flip_coin p ds.
Proof. exact code_flip_coin. Qed.
Print Assumptions C11_code_flip_coin.

Theorem C11_code_randint : forall low high (k : nat) ds, py_randint low high (Z.of_nat k) ds = randint low high k ds.
Proof. exact code_randint. Qed.
Print Assumptions C11_code_randint.

Theorem C11_code_proportional_selection : forall fitness rank tour (q : nat) ds, fitness <> [] ->
  py_proportional_selection fitness rank tour (Z.of_nat q) ds = proportional_selection fitness rank (Z.to_nat tour) q ds.
Proof. exact code_proportional_selection. Qed.
Print Assumptions C11_code_proportional_selection.

Theorem C11_code_rank_selection : forall fitness rank tour (q : nat) ds, rank <> [] ->
  py_rank_selection fitness rank tour (Z.of_nat q) ds = rank_selection fitness rank (Z.to_nat tour) q ds.
Proof. exact code_rank_selection. Qed.
Print Assumptions C11_code_rank_selection.

Theorem C11_code_tournament_selection : forall fitness rank (tour q : nat) ds,
  valid_draws ds -> (tour <= length fitness)%nat ->
  py_tournament_selection fitness rank (Z.of_nat tour) (Z.of_nat q) ds = tournament_selection fitness tour q ds.
Proof. exact code_tournament_selection. Qed.
Print Assumptions C11_code_tournament_selection.

Theorem C11_code_sattolo_shuffle : forall arr ds, valid_draws ds -> py_sattolo_shuffle arr ds = sattolo 0 arr ds.
Proof. exact code_sattolo_shuffle. Qed.
Print Assumptions C11_code_sattolo_shuffle.

Theorem C11_code_argsort_k : forall a (k : nat), py_argsort_k a (Z.of_nat k) = map Z.of_nat (argsort_k a k).
Proof. exact code_argsort_k. Qed.
Print Assumptions C11_code_argsort_k.

Theorem C11_code_find_pbest_id : forall a p, py_find_pbest_id a p = map Z.of_nat (find_pbest_id a p).
Proof. exact code_find_pbest_id. Qed.
Print Assumptions C11_code_find_pbest_id.

(* headline statements about the generated definitions themselves *)
Theorem C11_src_tournament_selection : forall fitness rank (tour q : nat) ds ws ds',
  valid_draws ds -> (0 < tour <= length fitness)%nat ->
  py_tournament_selection fitness rank (Z.of_nat tour) (Z.of_nat q) ds = Some (ws, ds') ->
  length ws = q /\
  Forall (fun w => 0 <= w < Z.of_nat (length fitness) /\ (tour <= count_le fitness w)%nat) ws.
Proof. intros fitness rank tour q ds ws ds' Hv [Ht1 Ht2] H. rewrite code_tournament_selection in H by auto. exact (tournament_selection_spec fitness tour q ds ws ds' Hv Ht1 H). Qed.
Print Assumptions C11_src_tournament_selection.

Theorem C11_src_random_sample : forall n (q : nat) replace ds r ds',
  valid_draws ds -> replace = true \/ Z.of_nat q <= n ->
  py_random_sample n (Z.of_nat q) replace ds = Some (r, ds') ->
  length r = q /\ Forall (fun v => 0 <= v < n) r /\ (replace = false -> NoDup r).
Proof. intros n q replace ds r ds' Hv Hpre H. rewrite code_random_sample in H by auto. exact (random_sample_spec n q replace ds r ds' Hv H). Qed.
Print Assumptions C11_src_random_sample.

Theorem C11_src_weighted_selection : forall w (q : nat) ds r ds', w <> [] ->
  py_random_weighted_sample w (Z.of_nat q) true ds = Some (r, ds') ->
  length r = q /\ Forall (fun v => 0 <= v < Z.of_nat (length w)) r.
Proof. intros w q ds r ds' Hw H. rewrite code_random_weighted_sample in H by auto. exact (weighted_selection_count_range w q ds r ds' Hw H). Qed.
Print Assumptions C11_src_weighted_selection.

Theorem C11_src_sattolo_permutation : forall arr ds r ds',
  valid_draws ds -> py_sattolo_shuffle arr ds = Some (r, ds') -> Permutation arr r.
Proof. intros arr ds r ds' Hv H. rewrite code_sattolo_shuffle in H by auto. exact (sattolo_perm 0 arr ds r ds' Hv H). Qed.
Print Assumptions C11_src_sattolo_permutation.

Theorem C11_src_interval : forall v c ds, c <> [] -> sorted c ->
  exists i, py_binary_search_interval v c ds = Some (Z.of_nat i, ds) /\
    (forall j, (j < i)%nat -> (nth j c 0 < v)%Q) /\ ((v <= nth i c 0)%Q \/ i = (length c - 1)%nat).
Proof. intros v c ds Hc Hs. exists (bsi v c). split; [now apply code_binary_search_interval|exact (bsi_first v c Hc Hs)]. Qed.
Print Assumptions C11_src_interval.

(* every translated function is free of writes into its parameters (the translator rejects such a store) *)
Theorem C11_no_param_writes : forall f, In f ["check_for_value"; "argsort_k"; "find_pbest_id"; "binary_search_interval";
    "sattolo_shuffle"; "random_weighted_sample"; "random_sample"; "randint";
    "proportional_selection"; "rank_selection"; "tournament_selection"]%string -> In f no_param_writes.
Proof. apply (incl_existsb String.eqb); [apply String.eqb_eq | reflexivity]. Qed.
Print Assumptions C11_no_param_writes.

Theorem C11_code_minmax_scale : forall l, py_minmax_scale l = minmax_scale l.
Proof. exact code_minmax_scale. Qed.
Print Assumptions C11_code_minmax_scale.
