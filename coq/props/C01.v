(* C01 — the reported best solution is the best individual ever evaluated.
   Model: theories/EALoop.v (both loop shapes, arbitrary variation oracle, arbitrary objective);
   proofs: theories/EALoopProofs.v. *)
From TF Require Import Base EALoop EALoopProofs.
From TF Require EAStore EAStoreProofs.
Open Scope Q_scope.

(* after fit(): the record holds an individual that was handed to the objective, whose normalised
   fitness is the maximum over EVERY individual ever evaluated, whose phenotype is the
   genotype-to-phenotype image of its genotype and whose fitness is the objective of that phenotype.
   For all optimizers (k), elitism, history, stopping criteria, variation oracles, objectives nf. *)
Theorem C01_best_is_max :
  forall (G P : Type) (g2p : G -> P) (nf : P -> Q) (k : kind) (elitism keep_history : bool)
         (aim : option Q) (no_increase_num : option nat) (var : state G P -> list G) (n : nat),
  (0 < n)%nat -> (forall st, length (var st) = n) ->
  forall iters gs0, length gs0 = n ->
  let st := fit G P g2p nf k elitism keep_history aim no_increase_num var iters gs0 in
  exists b, best st = Some b /\ In b (evaluated st) /\
    Forall (fun e => ifit e <= ifit b) (evaluated st) /\
    iph b = g2p (ig b) /\ ifit b = nf (iph b).
Proof. exact best_is_max. Qed.
Print Assumptions C01_best_is_max.

(* the same holds at every generation boundary: the invariant of every reachable state *)
Theorem C01_invariant_every_generation :
  forall (G P : Type) (g2p : G -> P) (nf : P -> Q) (k : kind) (elitism keep_history : bool)
         (var : state G P -> list G) (n : nat),
  (0 < n)%nat -> (forall st, length (var st) = n) ->
  forall (first : bool) (st : state G P) (gs : list G), length gs = n ->
  (first = true /\ st = init_state G P \/ first = false /\ Inv G P g2p nf elitism keep_history n st) ->
  Inv G P g2p nf elitism keep_history n (step G P g2p nf k elitism keep_history first st gs).
Proof. intros G P g2p nf k e kh var n Hn _. exact (step_inv G P g2p nf k e kh n Hn). Qed.
Print Assumptions C01_invariant_every_generation.

(* the clause of the invariant that C01 is about *)
Theorem C01_invariant_meaning :
  forall (G P : Type) (g2p : G -> P) (nf : P -> Q) (elitism keep_history : bool) (n : nat) (st : state G P),
  Inv G P g2p nf elitism keep_history n st ->
  exists b, best st = Some b /\ In b (evaluated st) /\ Forall (fun e => ifit e <= ifit b) (evaluated st).
Proof. intros G P g2p nf e kh n st. exact Inv_best. Qed.
Print Assumptions C01_invariant_meaning.

(* greedy loop, the non-obvious step: a rejected trial is dominated by a population member *)
Theorem C01_rejected_trials_dominated :
  forall (G P : Type) (ts ps : list (indiv G P)), (length ts <= length ps)%nat ->
  forall t, In t ts -> exists x, In x (greedy G P ts ps) /\ ifit t <= ifit x.
Proof. exact greedy_dominates. Qed.
Print Assumptions C01_rejected_trials_dominated.

(* the reported triple is a private copy (aliasing model theories/EAStore.v: arrays = row locations,
   a[i] = view, .copy() = fresh location, pop[mask] = ..., pop[-1] = ... write contents): as long as the
   record is not replaced, no sequence of population writes (greedy acceptance, elitism, a new
   population), history snapshots, get_fittest() calls or caller-side writes into returned objects
   changes the record's objects or their contents; and a replaced record is a FRESH copy *)
Theorem C01_fittest_private : forall (V : Type) (dflt : V) ops (s : EAStore.st V),
  EAStore.wf V s -> forallb (EAStoreProofs.no_replace V) ops = true ->
  EAStore.rcd V (EAStore.run V dflt s ops) = EAStore.rcd V s /\
  forall l, In l (EAStore.rcd V s) -> EAStore.rd V dflt (EAStore.heap V (EAStore.run V dflt s ops)) l = EAStore.rd V dflt (EAStore.heap V s) l.
Proof. exact EAStoreProofs.record_private. Qed.
Print Assumptions C01_fittest_private.

Theorem C01_replaced_record_is_fresh : forall (V : Type) (dflt : V) (s : EAStore.st V) i l,
  EAStore.wf V s -> nth_error (EAStore.pop V s) i = Some l ->
  EAStore.rcd V (EAStore.step V dflt s (EAStore.ReplaceRecord V i)) = [length (EAStore.heap V s)] /\ ~ In (length (EAStore.heap V s)) (EAStore.pop V s) /\
  EAStore.rd V dflt (EAStore.heap V (EAStore.step V dflt s (EAStore.ReplaceRecord V i))) (length (EAStore.heap V s)) = EAStore.rd V dflt (EAStore.heap V s) l.
Proof. exact EAStoreProofs.replace_is_fresh. Qed.
Print Assumptions C01_replaced_record_is_fresh.

Theorem C01_store_wf_preserved : forall (V : Type) (dflt : V) (s : EAStore.st V) o, EAStore.wf V s -> EAStore.wf V (EAStore.step V dflt s o).
Proof. exact EAStoreProofs.step_wf. Qed.
Print Assumptions C01_store_wf_preserved.

(* non-vacuity: a 3-generation greedy run with a tie and a rejected trial; genotype = phenotype = Z,
   objective x |-> x, batches [3;1] then [1;5] then [5;0] *)
Example C01_nonvacuous :
  let var := fun st : state Z Z => if (gens st =? 1)%nat then [1; 5]%Z else [5; 0]%Z in
  let st := fit Z Z (fun g => g) (fun p => inject_Z p) Greedy true true None None var 3 [3; 1]%Z in
  option_map ifit (best st) = Some (5 # 1) /\ gens st = 3%nat /\ calls st = 6%nat /\
  map ifit (pop st) = [5 # 1; 5 # 1].
Proof. vm_compute. auto. Qed.
Print Assumptions C01_nonvacuous.

(* TheFittest._update, generated from base/_ea.py into gen/GenLoop.v (a class is a record of its fields, a method a function
   on that record; -inf is Py.v's NegInf), IS the model's update_best, for every record state and every non-empty population
   and fitness vector: theories/CodeEqLoop.v. *)
From TF Require Import Py CodeEqLoop.
From TFG Require Import GenLoop.

Theorem C01_code_update_best : forall (G P : Type) (dG : G) (dP : P) (tf : TheFittest G P) (p : list (indiv G P)),
  p <> [] -> tf_fitness G P tf <> PosInf -> (0 <= tf_no_update_counter G P tf)%Z ->
  let tf' := py_TheFittest__update G P dG dP tf (map ig p) (map iph p) (map ifit p) in
  update_best G P (abs_best G P tf) (Z.to_nat (tf_no_update_counter G P tf)) p
  = (abs_best G P tf', Z.to_nat (tf_no_update_counter G P tf')).
Proof. exact code_update_best. Qed.
Print Assumptions C01_code_update_best.

Theorem C01_code_get : forall (G P : Type) (tf : TheFittest G P) f, tf_fitness G P tf = Fin f ->
  py_TheFittest_get G P tf = (tf_genotype G P tf, tf_phenotype G P tf, Fin f) /\
  abs_best G P tf = Some {| ig := tf_genotype G P tf; iph := tf_phenotype G P tf; ifit := f |}.
Proof. intros G P tf f H. unfold py_TheFittest_get, abs_best. now rewrite H. Qed.
Print Assumptions C01_code_get.

(* The whole run of the generational family (GA, SelfCGA, PDPGA, GP, SelfCGP, PDPGP: the base class's generation step),
   generated into gen/GenLoop.v with dynamic dispatch as a parameter and the joblib branch as an opaque parameter that
   n_jobs <= 1 never reaches, is simulated by the loop model on every field the code keeps (`sim`), for every objective,
   genotype_to_phenotype, variation oracle, budget and stopping rule: theories/CodeEqStep.v. *)
From TF Require Import CodeEqStep.

Theorem C01_code_step : forall (G P : Type) (dG : G) (dP : P) (g2p : G -> P) (f : P -> Q) par_value
    (self : EvolutionaryAlgorithm G P) (st : state G P) (gs : list G) (first : bool),
  sim G P dG dP self st -> gs <> [] -> (ea_n_jobs G P self <= 1)%Z ->
  sim G P dG dP (from_pop G P dG dP g2p f par_value (set_pop_g G P self gs))
      (step G P g2p (nf_of G P f self) Generational (ea_elitism G P self) (ea_keep_history G P self) first st gs).
Proof. exact code_step. Qed.
Print Assumptions C01_code_step.

Theorem C01_code_fit : forall (G P : Type) (dG : G) (dP : P) (g2p : G -> P) (f : P -> Q) par_value
    (newpop : EvolutionaryAlgorithm G P -> list G) (var : state G P -> list G) (self0 : EvolutionaryAlgorithm G P) (gs0 : list G),
  sim G P dG dP self0 (init_state G P) -> gs0 <> [] ->
  (ea_n_jobs G P self0 <= 1)%Z -> ea_aim G P self0 <> NegInf -> fst (ea_on_generation G P self0) = true ->
  (forall n, ea_no_increase_num G P self0 = Some n -> (0 <= n)%Z) ->
  (forall s st, sim G P dG dP s st -> newpop s = var st) -> (forall st, var st <> []) ->
  sim G P dG dP
      (py_EvolutionaryAlgorithm_fit G P (fun s => set_pop_g G P s gs0) (fun s => set_pop_g G P s (newpop s))
                                    (from_pop G P dG dP g2p f par_value) self0)
      (fit G P g2p (nf_of G P f self0) Generational (ea_elitism G P self0) (ea_keep_history G P self0)
           (abs_aim (ea_aim G P self0)) (abs_nin (ea_no_increase_num G P self0)) var (Z.to_nat (ea_iters G P self0)) gs0).
Proof. exact code_fit. Qed.
Print Assumptions C01_code_fit.

(* the premise is satisfiable: the constructed object is in the simulation with the model's initial state *)
Theorem C01_code_init_sim : forall (G P : Type) (dG : G) (dP : P) iters pop_size minimization optimal err nin elitism keep_history n_jobs has_cb,
  sim G P dG dP (py_EvolutionaryAlgorithm_init G P dG dP iters pop_size minimization optimal err nin elitism keep_history n_jobs has_cb) (init_state G P).
Proof. intros. unfold py_EvolutionaryAlgorithm_init. cbv zeta. constructor; cbn; try reflexivity. discriminate. Qed.
Print Assumptions C01_code_init_sim.

(* C01 (and the budget of C03) on the generated run: the record after fit() is the maximum over everything the run
   evaluated, an evaluated triple; _calls is pop_size * generations; on_generation ran generations - 1 times *)
Theorem C01_src_fit : forall (G P : Type) (dG : G) (dP : P) (g2p : G -> P) (f : P -> Q) par_value
    (newpop : EvolutionaryAlgorithm G P -> list G) (var : state G P -> list G) (self0 : EvolutionaryAlgorithm G P) (gs0 : list G) (n : nat),
  sim G P dG dP self0 (init_state G P) -> (0 < n)%nat -> length gs0 = n -> (forall st, length (var st) = n) -> (1 <= ea_iters G P self0)%Z ->
  (ea_n_jobs G P self0 <= 1)%Z -> ea_aim G P self0 <> NegInf -> fst (ea_on_generation G P self0) = true ->
  (forall m, ea_no_increase_num G P self0 = Some m -> (0 <= m)%Z) ->
  (forall s st, sim G P dG dP s st -> newpop s = var st) ->
  let self := py_EvolutionaryAlgorithm_fit G P (fun s => set_pop_g G P s gs0) (fun s => set_pop_g G P s (newpop s))
                                           (from_pop G P dG dP g2p f par_value) self0 in
  let st := fit G P g2p (nf_of G P f self0) Generational (ea_elitism G P self0) (ea_keep_history G P self0)
                (abs_aim (ea_aim G P self0)) (abs_nin (ea_no_increase_num G P self0)) var (Z.to_nat (ea_iters G P self0)) gs0 in
  (exists b, abs_best G P (ea_thefittest G P self) = Some b /\ In b (evaluated st) /\
             Forall (fun e => (ifit e <= ifit b)%Q) (evaluated st) /\ iph b = g2p (ig b) /\ ifit b = nf_of G P f self0 (iph b)) /\
  ea_calls G P self = Z.of_nat (calls st) /\ (calls st = n * gens st)%nat /\
  (1 <= gens st <= Z.to_nat (ea_iters G P self0))%nat /\
  snd (ea_on_generation G P self) = Z.of_nat (gens st - 1).
Proof. exact src_fit_best_and_calls. Qed.
Print Assumptions C01_src_fit.
