(* C12 — Net.forward computes the function its graph defines.
   The longer proofs are in theories/NetForwardProofs.v, NetForwardProofs2.v, NetForwardQc.v
   (NetOrderProofs.v for the schedule, NetMLPProofs2.v for the nets of the MLP builder).
   Models: theories/Net.v, NetOrder.v, NetForward.v.

   The theorems are stated over abstract scalars K (weights) and node values V (the row of a node
   over all samples) with abstract activation functions  act code  (codes 0..4) and an abstract
   joint function  smx  (code 5, only its length is assumed), for EVERY  garbage  initial content
   of the np.empty node buffer.  Layered n (NetOrderProofs.v) = the id sets are disjoint, a rank
   (0 on inputs, layer index + 1 on hidden, last on outputs) strictly increases along every
   connection row, every hidden and output node has an incoming row, activation codes exactly on
   the non-input nodes.  Duplicate rows are allowed (they add up).  sm_same n = all softmax
   nodes have the same sorted source tuple (C12_decoded_premises, C12_mlp_premises: true of
   library-built nets in which only output nodes carry code 5).                                 *)
From TF Require Import Base Net NetAlgebra NetOrder NetForward NetProofs NetProofs2 NetOrderProofs
     NetForwardProofs NetForwardProofs2 C12Check NetForwardQc NetMLPProofs NetMLPProofs2.
From Coq Require Import Permutation Qcanon.
Local Open Scope nat_scope.

Section C12.
  Variables K V : Type.
  Variable kzero : K.
  Variable vzero : V.
  Variable vadd : V -> V -> V.
  Variable vscale : K -> V -> V.
  Variable act : nat -> V -> V.
  Variable smx : list V -> list V.
  Hypothesis smx_length : forall l, length (smx l) = length l.

  Notation net_forward := (NetForward.net_forward K V kzero vzero vadd vscale act smx).
  Notation ref_eval := (NetForward.ref_eval K V kzero vzero vadd vscale act smx).

  (* forward(X, W) with a batch of weight rows returns, for row r, exactly what a call with only
     that row returns — whatever the (reused) buffer held before: every non-input node is
     overwritten before it is read, inputs are never written *)
  Theorem C12_batch_rows_independent : forall n garbage1 garbage2 x ws r w out,
    Layered n -> length garbage1 = length garbage2 ->
    net_forward (order_fuel n) n garbage1 x ws = Some out -> nth_error ws r = Some w ->
    exists row, nth_error out r = Some row /\
                net_forward (order_fuel n) n garbage2 x [w] = Some [row].
  Proof. intros. eapply net_batch_rows_independent; eauto. Qed.

  (* results do not depend on earlier calls: the schedule is a function of the net, and whatever an
     earlier call (or np.empty) left in the buffer cannot be observed *)
  Theorem C12_history_independent : forall n garbage1 garbage2 x ws,
    Layered n -> length garbage1 = length garbage2 ->
    net_forward (order_fuel n) n garbage1 x ws = net_forward (order_fuel n) n garbage2 x ws.
  Proof.
  intros. rewrite (net_forward_fresh K V kzero vzero vadd vscale act smx n garbage1 garbage2),
    (net_forward_fresh K V kzero vzero vadd vscale act smx n garbage2 garbage2); auto.
Qed.

  (* output shape: one row per weight row, one value per output node (x samples, inside V) *)
  Theorem C12_forward_shape : forall fuel n garbage x ws out,
    net_forward fuel n garbage x ws = Some out ->
    length out = length ws /\ Forall (fun row => length row = length (n_out n)) out.
  Proof.
  intros fuel n garbage x ws out. unfold NetForward.net_forward. destruct (get_order fuel n); [|discriminate].
  intro H. inversion H; subst. apply forward_rows_shape.
Qed.

  Hypothesis vadd_comm : forall a b, vadd a b = vadd b a.
  Hypothesis vadd_assoc : forall a b c, vadd a (vadd b c) = vadd (vadd a b) c.

  (* the scheduled evaluation terminates and equals the schedule-independent reference evaluation
     (value of a node = activation of the weighted sum over its rows in connection-list order,
     duplicate rows adding up, softmax jointly over all code-5 nodes), for every weight row of
     the batch *)
  Theorem C12_forward_is_ref : forall n garbage x ws,
    Layered n -> sm_same n ->
    (forall v, In v (n_in n ++ hidden n ++ n_out n) -> v < length garbage) ->
    net_forward (order_fuel n) n garbage x ws = Some (map (fun w => ref_eval n w x) ws).
  Proof. intros. apply forward_is_ref; auto. Qed.

  (* permuting the connection rows together with their weights does not change the result *)
  Theorem C12_connection_order_irrelevant : forall n n' w w' garbage x,
    Layered n -> sm_same n ->
    n_in n' = n_in n -> n_hid n' = n_hid n -> n_out n' = n_out n -> n_act n' = n_act n ->
    length w = length (n_con n) -> length w' = length (n_con n') ->
    Permutation (combine (n_con n) w) (combine (n_con n') w') ->
    (forall v, In v (n_in n ++ hidden n ++ n_out n) -> v < length garbage) ->
    net_forward (order_fuel n') n' garbage x [w'] = net_forward (order_fuel n) n garbage x [w].
  Proof. intros. apply order_irrelevant; auto. Qed.
  (* consequently, for EVERY net the (repaired) MLP builder produces — any number of hidden layers,
     any sizes >= 1, offset on/off, hidden activation other than softmax — Net.forward equals the
     reference evaluation, with a buffer of n_inputs + sum(hidden) + n_outputs nodes *)
  Theorem C12_mlp_forward_is_ref : forall ni no hs act offset oact garbage x ws,
    1 <= ni -> 1 <= no -> Forall (fun h => 1 <= h) hs -> act <> 5 ->
    ni + list_sum hs + no <= length garbage ->
    exists r, define_net true ni no hs act offset oact = Some r /\
      net_forward (order_fuel r) r garbage x ws = Some (map (fun w => ref_eval r w x) ws).
  Proof.
    intros ni no hs a offset oact garbage x ws H1 H2 H3 H4 H5.
    destruct (mlp_premises ni no hs a offset oact H1 H2 H3 H4) as [r [E [L [S B]]]].
    exists r. split; auto. apply forward_is_ref; auto. intros v Hv. specialize (B v Hv). lia.
  Qed.
End C12.
Print Assumptions C12_mlp_forward_is_ref.
Print Assumptions C12_batch_rows_independent.
Print Assumptions C12_history_independent.
Print Assumptions C12_forward_shape.
Print Assumptions C12_forward_is_ref.
Print Assumptions C12_connection_order_irrelevant.

(* the premises hold for every decoded tree: Valid nets are Layered, and the decoder gives all
   outputs one source set, so a softmax output layer satisfies sm_same *)
Theorem C12_valid_is_layered : forall n, Valid n -> Layered n.
Proof. exact Valid_Layered. Qed.
Print Assumptions C12_valid_is_layered.

(* every decoded tree (C13_decode_valid gives Decoded) meets the premises, provided softmax occurs
   only on the output layer (hidden blocks draw their activation code from 0..4) *)
Theorem C12_decoded_premises : forall nv nout r,
  Decoded nv nout r -> (forall v, alookup v (n_act r) = Some 5 -> In v (n_out r)) ->
  Layered r /\ sm_same r.
Proof.
  intros nv nout r D Hsm. split; [apply Valid_Layered, (d_valid _ _ _ D)|].
  intros u v Hu Hv. pose proof (v_nodup r (d_valid _ _ _ D)) as ND.
  apply key_of_eq, NoDup_Permutation; try apply srcs_of_NoDup; auto.
  intro a. rewrite !srcs_of_In. split; apply (d_sources _ _ _ D); auto.
Qed.
Print Assumptions C12_decoded_premises.

(* the boolean premises evaluated by the correspondence on every library-built net are sound *)
Theorem C12_premises_b_sound : forall n, chk_premises n = true -> Layered n /\ sm_same n.
Proof. intro n. apply chk_premises_iff. Qed.
Print Assumptions C12_premises_b_sound.

(* EVERY net built by the repaired MLP builder meets the premises of C12_forward_is_ref: any number
   of hidden layers, any sizes >= 1, n_inputs >= 1, n_outputs >= 1, offset on/off, any output
   activation, any hidden activation other than softmax (a softmax hidden layer next to another
   softmax layer would violate sm_same; the estimators' default and documented use is 0..4):
   Layered, all softmax nodes share one sorted source tuple, ids inside a buffer of
   n_inputs + sum(hidden) + n_outputs nodes *)
Theorem C12_mlp_premises : forall ni no hs act offset oact,
  1 <= ni -> 1 <= no -> Forall (fun h => 1 <= h) hs -> act <> 5 ->
  exists r, define_net true ni no hs act offset oact = Some r /\
    Layered r /\ sm_same r /\
    (forall v, In v (n_in r ++ hidden r ++ n_out r) -> v < ni + list_sum hs + no).
Proof. exact mlp_premises. Qed.
Print Assumptions C12_mlp_premises.

(* bounded instance of C12_mlp_premises (follows from it, the boolean checker being complete): hidden
   tuples of <= 3 layers with sizes 1..3, n_inputs 1..4, n_outputs 1..3, offset on/off *)
Theorem C12_mlp_premises_sweep_3layers_size3_in4_out3 : mlp_premises_sweep = true.
Proof.
  apply sweep_all. intros hs ni no offset Hf Hni Hno.
  destruct (mlp_premises ni no hs 1 offset 5 Hni Hno Hf) as [r [E [L [S _]]]]; [discriminate|].
  rewrite E. apply chk_premises_iff. auto.
Qed.
Print Assumptions C12_mlp_premises_sweep_3layers_size3_in4_out3.

(* the instance evaluated by the correspondence (K = V = Qc, ReLU / identity) *)
Theorem C12_forward_is_ref_Qc : forall n garbage x ws,
  Layered n -> sm_same n ->
  (forall v, In v (n_in n ++ hidden n ++ n_out n) -> v < length garbage) ->
  fwd_qc (order_fuel n) n garbage x ws = Some (map (fun w => ref_qc n w x) ws).
Proof.
  intros n garbage x ws L SM H. unfold fwd_qc, ref_qc.
  apply (forward_is_ref Qc Qc (Q2Qc 0) (Q2Qc 0) Qcplus Qcmult act_qc smx_qc); auto.
  - intros a b. apply Qcplus_comm.
  - intros a b c. apply Qcplus_assoc.
Qed.
Print Assumptions C12_forward_is_ref_Qc.

(* softmax_numba with an exponential that is only assumed positive: entries >= 0, sum to 1 *)
Theorem C12_softmax_normalised : forall (exp : Q -> Q), (forall x, (0 < exp x)%Q) ->
  forall l, l <> [] ->
  Forall (fun y => (0 <= y)%Q) (softmax_q exp l) /\ (qsum (softmax_q exp l) == 1)%Q.
Proof. exact softmax_normalised. Qed.
Print Assumptions C12_softmax_normalised.

(* DESIGN §7 item 14 (known finding, hand-built nets only): without sm_same the claim is false —
   on inputs {0,1}, softmax outputs {2,3}, rows 0->2, 1->3 the scheduled pass normalises each
   output separately *)
Theorem C12_softmax_split_refuted :
  Valid net14 /\ ~ sm_same net14 /\
  exists x w garbage,
    NetForward.net_forward Qc Qc (Q2Qc 0) (Q2Qc 0) Qcplus Qcmult act_qc norm_qc
                           (order_fuel net14) net14 garbage x [w]
    <> Some [NetForward.ref_eval Qc Qc (Q2Qc 0) (Q2Qc 0) Qcplus Qcmult act_qc norm_qc net14 w x].
Proof.
  split; [apply valid_b_sound; vm_compute; reflexivity|]. split.
  - intro H. specialize (H 2 3 eq_refl eq_refl). vm_compute in H. discriminate.
  - exists [Q2Qc 1; Q2Qc 3], [Q2Qc 1; Q2Qc 1], (repeat (Q2Qc 0) 4).
    intro H.
    apply (f_equal (fun o => match o with Some l => map (map this) l | None => [] end)) in H.
    vm_compute in H. discriminate.
Qed.
Print Assumptions C12_softmax_split_refuted.

(* non-vacuity: test_net's 6-node ReLU net with a duplicated row and a skip connection is Layered
   and sm_same, and the model evaluates it *)
Example C12_nonvacuous :
  let n := mkNet [0; 1] [[2; 3]; [4]] [5] [(0, 2); (1, 3); (2, 4); (3, 4); (4, 5); (0, 5); (0, 2)] 7
                 [(2, 1); (3, 1); (4, 1); (5, 4)] in
  Layered n /\ sm_same n /\
  (exists out, fwd_qc (order_fuel n) n (repeat (Q2Qc 777) 6) [Q2Qc 1; Q2Qc 2]
                      [[Q2Qc 1; Q2Qc 1; Q2Qc 1; Q2Qc 1; Q2Qc 1; Q2Qc 1; Q2Qc 1]] = Some [out] /\
               map this out = [(5 # 1)%Q]).
Proof.
  cbv zeta.
  set (n := mkNet [0; 1] [[2; 3]; [4]] [5] [(0, 2); (1, 3); (2, 4); (3, 4); (4, 5); (0, 5); (0, 2)] 7
                  [(2, 1); (3, 1); (4, 1); (5, 4)]).
  destruct (proj1 (chk_premises_iff n)) as [L S]; [vm_compute; reflexivity|].
  split; auto. split; auto. eexists. split; vm_compute; reflexivity.
Qed.
Print Assumptions C12_nonvacuous.
