(* C09 — a tree means what it prints: evaluation, printing and tree algebra agree.
   The theorems the statements are derived from are in theories/TreeProofs.v, TreeProofs2.v,
   TreeEvalProofs.v, TreeCR.v, TreeCRk.v, CodeEqC09.v.
   All theorems quantify over ALL well-formed trees (nested induction), any symbol type with an
   arity function, any value domain and interpretation. *)
From Coq Require Import String Ascii.
From Coq Require Import List Arith Bool Lia ZArith QArith.
Import ListNotations.
From TF Require Import Tree TreeIdx TreeEval TreeProofs TreeProofs2 TreeEvalProofs TreeCR TreeCRk C09Check.
From TFG Require Import GenSymTable.
Open Scope nat_scope.

(* find_end_subtree_from_i started at the root of an encoded sub-term stops exactly behind it
   (the fuel find_end uses, the length of the array, suffices) *)
Theorem C09_find_end : forall (sym : Type) (arity : sym -> nat) (t : tree sym) (pre rest : list sym),
  wft arity t = true ->
  find_end (nargs arity (pre ++ flatten t ++ rest)) (length pre) = Some (length pre + size t).
Proof. intros sym arity. exact (find_end_flat arity). Qed.
Print Assumptions C09_find_end.

(* subtree(i) of the encoding of t is the encoding of the sub-term of t rooted at position i *)
Theorem C09_subtree_flatten : forall (sym : Type) (arity : sym -> nat) (t : tree sym) (i : nat),
  wft arity t = true -> i < size t ->
  exists u, sub_at t i = Some u /\ wft arity u = true /\
            subtree arity (flatten t) i = Some (flatten u).
Proof.
  intros sym arity t i W H. destruct (sub_at_some t i H) as [u E]. exists u.
  split; [exact E|]. split; [exact (sub_at_wf arity t W i u E)|]. exact (subtree_flatten arity t i u W E).
Qed.
Print Assumptions C09_subtree_flatten.

(* concat(i, q) is the encoding of t with the sub-term at i replaced, and it is well formed *)
Theorem C09_concat_flatten : forall (sym : Type) (arity : sym -> nat) (t v : tree sym) (i : nat),
  wft arity t = true -> wft arity v = true -> i < size t ->
  concat arity (flatten t) i (flatten v) = Some (flatten (replace_at t i v)) /\
  wft arity (replace_at t i v) = true.
Proof.
  intros sym arity t v i W Wv H. destruct (sub_at_some t i H) as [u E]. split.
  - exact (concat_flatten arity t i u v W E).
  - exact (replace_at_wf arity t W i v Wv).
Qed.
Print Assumptions C09_concat_flatten.

(* concat(i, subtree(i)) is the identity — on any node list for which subtree(i) is defined *)
Theorem C09_concat_subtree_id : forall (sym : Type) (arity : sym -> nat) (p : list sym) (i : nat) (q : list sym),
  subtree arity p i = Some q -> concat arity p i q = Some p.
Proof. intros sym arity. exact (concat_subtree_id arity). Qed.
Print Assumptions C09_concat_subtree_id.

(* ... in particular for every index of a well-formed tree *)
Theorem C09_concat_subtree_id_wf : forall (sym : Type) (arity : sym -> nat) (t : tree sym) (i : nat),
  wft arity t = true -> i < size t ->
  exists q, subtree arity (flatten t) i = Some q /\ concat arity (flatten t) i q = Some (flatten t).
Proof.
  intros sym arity t i W H. destruct (sub_at_some t i H) as [u E]. exists (flatten u).
  pose proof (subtree_flatten arity t i u W E) as S. split; [exact S|].
  exact (concat_subtree_id arity (flatten t) i (flatten u) S).
Qed.
Print Assumptions C09_concat_subtree_id_wf.

(* the implementation's pair (node list, arity array) stays consistent under subtree / concat *)
Theorem C09_pair_consistent : forall (sym : Type) (arity : sym -> nat) (p q : list sym) (i : nat),
  subtree_p (mk arity p) i = option_map (mk arity) (subtree arity p i) /\
  concat_p (mk arity p) i (mk arity q) = option_map (mk arity) (concat arity p i q).
Proof. intros sym arity p q i. split; [apply subtree_p_mk | apply concat_p_mk]. Qed.
Print Assumptions C09_pair_consistent.

(* get_args_id = the prefix positions at which the argument subtrees start *)
Theorem C09_args_id : forall (sym : Type) (arity : sym -> nat) (s : sym) (kids : list (tree sym)) (pre rest : list sym),
  wft arity (Node s kids) = true ->
  find_args (nargs arity (pre ++ flatten (Node s kids) ++ rest)) (length pre)
  = Some (child_starts (S (length pre)) kids).
Proof. intros sym arity. exact (find_args_flat arity). Qed.
Print Assumptions C09_args_id.

(* before the repair get_args_id failed on every terminal (out-of-bounds write on an empty array) *)
Theorem C09_args_id_old_refuted : exists (a : list nat) (i : nat),
  i < length a /\ find_args_old a i = None /\ find_args a i = Some [].
Proof. exists [0], 0. vm_compute. auto. Qed.
Print Assumptions C09_args_id_old_refuted.

(* get_levels(i) = levels of the sub-term at i (its root at level 0), in prefix order *)
Theorem C09_levels : forall (sym : Type) (arity : sym -> nat) (t u : tree sym) (i : nat),
  wft arity t = true -> sub_at t i = Some u ->
  levels (nargs arity (flatten t)) i = levels_rec 0 u.
Proof. intros sym arity. exact (levels_sub_at arity). Qed.
Print Assumptions C09_levels.

(* get_max_level = depth (a single node has depth 0) *)
Theorem C09_max_level : forall (sym : Type) (arity : sym -> nat) (t : tree sym),
  wft arity t = true -> max_level (nargs arity (flatten t)) = depth t.
Proof. intros sym arity. exact (max_level_flat arity). Qed.
Print Assumptions C09_max_level.

(* the encoding determines the tree *)
Theorem C09_flatten_inj : forall (sym : Type) (arity : sym -> nat) (t1 t2 : tree sym),
  wft arity t1 = true -> wft arity t2 = true -> flatten t1 = flatten t2 -> t1 = t2.
Proof.
  intros sym arity t1 t2 W1 W2 E. apply (parse_flatten arity) in W1, W2. rewrite E in W1. congruence.
Qed.
Print Assumptions C09_flatten_inj.

(* common_region_two_trees returns exactly the recursive common region: the root is common; the
   arguments are paired off and visited iff the two nodes have the same arity, otherwise the node
   is a border *)
Theorem C09_common_region_spec : forall (sym : Type) (arity : sym -> nat) (t1 t2 : tree sym),
  wft arity t1 = true -> wft arity t2 = true ->
  common_region_two (nargs arity (flatten t1)) (nargs arity (flatten t2))
  = Some (cr_rec arity t1 t2 0 0).
Proof. intros sym arity. exact (common_region_two_spec arity). Qed.
Print Assumptions C09_common_region_spec.

(* The k-tree walk  common_region(trees)  (model: TreeIdx.common_region_k, the column scan with
   find_end jumps): for EVERY k >= 1 and every tuple of well-formed trees it returns exactly the
   recursive common region of the k trees — every scanned column (one position per tree) and the
   border columns.  TreeCRk.crk_rec is the recursive definition: the tuple of roots is a common
   column; iff ALL k root arities agree the region continues into the i-th arguments of all trees
   (for every i), otherwise the column is a border.  Any fuel d > depth of the first tree gives
   the same crk_rec. *)
Theorem C09_common_region_k_spec : forall (sym : Type) (arity : sym -> nat) (T0 : tree sym) (Ts' : list (tree sym)) (d : nat),
  Forall (fun t => wft arity t = true) (T0 :: Ts') -> depth T0 < d ->
  common_region_k (map (fun t => nargs arity (flatten t)) (T0 :: Ts'))
  = Some (region_of (crk_rec arity d (T0 :: Ts') (map (fun _ => 0) (T0 :: Ts')))).
Proof. intros sym arity. exact (common_region_k_spec arity). Qed.
Print Assumptions C09_common_region_k_spec.

(* the recursive definition does not depend on the fuel beyond the depth of the first tree *)
Theorem C09_crk_rec_fuel : forall (sym : Type) (arity : sym -> nat) (d d' : nat) (t0 : tree sym) ts' os,
  wft arity t0 = true -> depth t0 < d -> depth t0 < d' ->
  crk_rec arity d (t0 :: ts') os = crk_rec arity d' (t0 :: ts') os.
Proof. intros sym arity. exact (crk_rec_fuel arity). Qed.
Print Assumptions C09_crk_rec_fuel.

(* it computes: f(g(x),y), f(x,h(y,z)), f(g(x),y) — columns (0,0,0) (1,1,1) (3,2,3), borders at
   (1,1,1) [arities 1,0,1] and (3,2,3) [arities 0,2,0] *)
Example C09_common_region_k_nonvacuous :
  let t1 := Node 2 [Node 1 [Node 0 []]; Node 0 []] in
  let t2 := Node 2 [Node 0 []; Node 2 [Node 0 []; Node 0 []]] in
  Forall (fun t => wft (fun n : nat => n) t = true) [t1; t2; t1] /\
  common_region_k (map (fun t => nargs (fun n : nat => n) (flatten t)) [t1; t2; t1])
  = Some ([[0; 0; 0]; [1; 1; 1]; [3; 2; 3]], [[1; 1; 1]; [3; 2; 3]]).
Proof. cbv zeta. split; [repeat constructor|vm_compute; reflexivity]. Qed.
Print Assumptions C09_common_region_k_nonvacuous.

(* a sweep of the instance k = 2 (it follows from C09_common_region_k_spec and
   C09_common_region_spec): on every pair of well-formed arity arrays with at most 5 nodes
   (arities 0..3) the k-tree walk returns the same region as the two-tree walk. *)
Theorem C09_common_region_k_partial_le5 :
  forallb (fun a1 => forallb (fun a2 => crk_agrees_cr2 a1 a2) (shapes_upto 5)) (shapes_upto 5) = true.
Proof. vm_compute. reflexivity. Qed.
Print Assumptions C09_common_region_k_partial_le5.

(* Tree.__call__ (one reversed pass with a stack) returns the value of the expression: each
   function symbol applied to the values of its argument subtrees IN ORDER *)
Theorem C09_call_is_eval : forall (sym V : Type) (arity : sym -> nat) (interp : sym -> list V -> V)
  (p : list sym) (t : tree sym),
  wft arity t = true -> flatten t = p -> call arity interp p = Some (eval interp t).
Proof. intros sym V arity interp. exact (call_is_eval arity interp). Qed.
Print Assumptions C09_call_is_eval.

(* Tree.__str__ prints exactly that expression *)
Theorem C09_str_is_render : forall (V : Type) (ffmt tname : nat -> string) (p : list (node V)) (t : tree (node V)),
  wft node_arity t = true -> flatten t = p -> show ffmt tname p = Some (render ffmt tname t).
Proof. intros V ffmt tname p t W E. exact (call_is_eval node_arity _ p t W E). Qed.
Print Assumptions C09_str_is_render.

(* batch = per sample, generic: if every interpretation is pointwise (commutes with taking one
   sample h, on values that have that sample) then so is the evaluation of every tree *)
Theorem C09_batch_pointwise : forall (sym V W : Type) (IV : sym -> list V -> V) (IW : sym -> list W -> W)
  (h : V -> W) (good : V -> Prop),
  (forall s args, Forall good args -> good (IV s args) /\ h (IV s args) = IW s (map h args)) ->
  forall t : tree sym, good (eval IV t) /\ h (eval IV t) = eval IW t.
Proof.
  intros sym V W IV IW h good pointwise t.
  apply (batch_pointwise_on IV IW h good (fun _ => True)); [intros s args _; apply pointwise|].
  apply Forall_forall. intros; exact I.
Qed.
Print Assumptions C09_batch_pointwise.

(* every named operator (cos sin add sub mul div abs logabs exp sqrtabs, and neg) is pointwise on
   scalars/arrays with broadcasting — for ANY transcendental functions tr *)
Theorem C09_named_ops_pointwise : forall (tr : nat -> Q -> Q) (f : nat) (args : list val) (k : nat),
  forallb (inb k) args = true ->
  inb k (sym_op tr false f args) = true /\
  sample k (sym_op tr false f args) = sym_op tr false f (map (sample k) args).
Proof. exact sym_op_pointwise. Qed.
Print Assumptions C09_named_ops_pointwise.

(* hence: evaluating a tree on a batch and taking sample k = evaluating it on sample k alone *)
Theorem C09_batch_is_per_sample : forall (tr : nat -> Q -> Q) (t : tree (node val)) (k : nat),
  forallb (term_inb k) (flatten t) = true ->
  sample k (eval (ninterp (sym_op tr false)) t)
  = eval (ninterp (sym_op tr false)) (tmap (sample_node k) t).
Proof. intros tr t k H. rewrite eval_tmap. apply batch_is_per_sample_inv, H. Qed.
Print Assumptions C09_batch_is_per_sample.

(* record of the repaired defect: with the old scalar branch of save_div (x/0 = 0.0 for a scalar
   zero divisor, 1.0 element-wise for an array) division was not pointwise: witness x/0 *)
Theorem C09_batch_pointwise_old_div_refuted : forall tr : nat -> Q -> Q,
  exists args k, forallb (inb k) args = true /\
    ~ (proj 0 (sample k (sym_op tr true 5 args)) == proj 0 (sym_op tr true 5 (map (sample k) args)))%Q.
Proof. intros tr. exists [Ar [1%Q]; Ar [0%Q]], 0. split; [reflexivity|]. vm_compute. intro H; discriminate. Qed.
Print Assumptions C09_batch_pointwise_old_div_refuted.

(* calling the copy returned by set_terminals = evaluating the tree under the environment *)
Theorem C09_set_terminals : forall (V : Type) (fI : nat -> list V -> V) (t : tree (node V)) (env : list (nat * V)),
  wft node_arity t = true ->
  call node_arity (ninterp fI) (set_terminals env (flatten t)) = Some (eval (ninterp_env fI env) t).
Proof. intros V fI. exact (set_terminals_call fI). Qed.
Print Assumptions C09_set_terminals.

(* exactly the named terminals are re-bound; function nodes and other terminals are untouched *)
Theorem C09_set_terminals_exact : forall (V : Type) (env : list (nat * V)) (p : list (node V)),
  length (set_terminals env p) = length p /\
  (forall i, nth_error (set_terminals env p) i = option_map (rebind env) (nth_error p i)) /\
  (forall f ar, rebind env (FN f ar) = FN f ar) /\
  (forall nm v, lookup nm env = None -> rebind env (TN nm v) = TN nm v) /\
  (forall nm v v', lookup nm env = Some v' -> rebind env (TN nm v) = TN nm v').
Proof.
  intros V env p. unfold set_terminals. split; [apply map_length|]. split; [intros i; apply nth_error_map|].
  repeat split; intros; simpl; try rewrite H; reflexivity.
Qed.
Print Assumptions C09_set_terminals_exact.

(* Tree.__eq__ is equality of the symbol-name sequences; with names determining arities, equal
   trees have the same shape; a copy and a re-bound copy are equal to the original *)
Theorem C09_eq_structural : forall (V : Type) (p q : list (node V)),
  (tree_eqb p q = true <-> map node_name p = map node_name q) /\
  ((forall n m, In n p -> In m q -> node_name n = node_name m -> node_arity n = node_arity m) ->
   tree_eqb p q = true -> nargs node_arity p = nargs node_arity q).
Proof. intros V p q. split; [apply tree_eqb_structural | apply tree_eqb_same_shape]. Qed.
Print Assumptions C09_eq_structural.

Theorem C09_copy_eq : forall (V : Type) (p : ptree (node V)) (env : list (nat * V)),
  copy p = p /\ tree_eqb (fst (copy p)) (fst p) = true /\ tree_eqb (set_terminals env (fst p)) (fst p) = true.
Proof.
  intros V [a b] env. split; [reflexivity|]. split; apply tree_eqb_structural; [reflexivity|].
  unfold set_terminals. rewrite map_map. apply map_ext, node_name_rebind.
Qed.
Print Assumptions C09_copy_eq.

(* the hypotheses are satisfiable and the statements compute: (x0 + abs(x1)) *)
Example C09_nonvacuous :
  let t := Node (FN 2 2) [Node (TN 0 (Sc (1 # 2))) []; Node (FN 6 1) [Node (TN 1 (Ar [(-3) # 1; 2 # 1]%Q)) []]] in
  wft node_arity t = true /\
  find_end (nargs node_arity (flatten t)) 2 = Some 4 /\
  levels (nargs node_arity (flatten t)) 0 = [0; 1; 1; 2] /\
  call node_arity (ninterp (sym_op (fun _ x => x) false)) (flatten t) = Some (Ar [(7 # 2)%Q; (5 # 2)%Q]) /\
  show (fun f => nth f ["";"";"({} + {})";"";"";"";"abs({})"]%string EmptyString)
       (fun n => nth n ["x0";"x1"]%string EmptyString) (flatten t) = Some "(x0 + abs(x1))"%string.
Proof. vm_compute. repeat split; reflexivity. Qed.
Print Assumptions C09_nonvacuous.

(* record of the repaired defect: in the table as it was, the key "logabs" occurred twice; a
   lookup of "logabs" returned the sqrt(abs) operation and "sqrtabs" was not a key at all *)
Theorem C09_symtable_old_refuted :
  symtable_ok sym_table_old = false /\
  option_map sr_op (dict_get "logabs" sym_table_old) = Some "..utils.sqrtabs"%string /\
  dict_get "sqrtabs" sym_table_old = None /\
  option_map sr_op (dict_get "logabs" sym_table) = Some "..utils.logabs"%string /\
  option_map sr_op (dict_get "sqrtabs" sym_table) = Some "..utils.sqrtabs"%string.
Proof. vm_compute. repeat split; reflexivity. Qed.
Print Assumptions C09_symtable_old_refuted.

(* (T) the name table
   Over the table regenerated from _tree.py on every run: keys pairwise distinct; every key is
   bound to the operation its name promises, prints as that operation, and the number of "{}" in
   its format is the arity of the operation.  (Fails to check when a key is duplicated.) *)
Theorem C09_symtable_named : symtable_ok sym_table = true.
Proof. vm_compute. reflexivity. Qed.
Print Assumptions C09_symtable_named.

(* THE TIE TO THE SOURCE for the index helpers.  gen/GenCode.v is regenerated on every run from the bodies of
   find_end_subtree_from_i, find_id_args_from_i and get_levels_tree_from_i in utils/__init__.py
   (harness/translate_code.py; semantics of the subset: theories/Py.v).  Whenever the model above yields a
   result (it yields None exactly for an out-of-range read), the generated definition yields the same result;
   levels reads nothing out of range, so its equation is unconditional. *)
From TF Require Import Py CodeEqC09.
From TFG Require Import GenCode.

Theorem C09_code_find_end_subtree_from_i : forall a (index e : nat) ds,
  find_end a index = Some e ->
  py_find_end_subtree_from_i (Z.of_nat index) (zs a) ds = Some (Z.of_nat e, ds).
Proof. exact code_find_end_subtree_from_i. Qed.
Print Assumptions C09_code_find_end_subtree_from_i.

Theorem C09_code_find_id_args_from_i : forall a (index : nat) r ds,
  find_args a index = Some r ->
  py_find_id_args_from_i (Z.of_nat index) (zs a) ds = Some (zs r, ds).
Proof. exact code_find_id_args_from_i. Qed.
Print Assumptions C09_code_find_id_args_from_i.

Theorem C09_code_get_levels_tree_from_i : forall a (origin : nat),
  py_get_levels_tree_from_i (Z.of_nat origin) (zs a) = zs (levels a origin).
Proof. exact code_get_levels_tree_from_i. Qed.
Print Assumptions C09_code_get_levels_tree_from_i.
