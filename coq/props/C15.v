(* C15 — adaptive control parameters stay in range and follow their update rules.
   Proofs in theories/AdaptProofs.v, the code equalities in CodeEqC15.v, CodeEqAdapt.v and
   CodeEqAdaptStep.v; the jDE range and the accept-only rule are proved here. *)
From TF Require Import Base RandomPrims RandomPrimsProofs Adapt AdaptProofs.
Open Scope Q_scope.

(* SHADE draws every F in (0,1] and CR in [0,1] (memory index in range), one pair per individual *)
Theorem C15_shade_ranges : forall pop H ds r ds', (0 < H)%Z -> valid_draws ds ->
  shade_generate pop H ds = Some (r, ds') -> length r = pop /\ Forall (pair_ok H 1) r.
Proof. exact shade_ranges. Qed.
Print Assumptions C15_shade_ranges.

(* SHAGA draws every mutation rate in (0, hi], hi = 5/str_len, and CR in [0,1] *)
Theorem C15_shaga_ranges : forall hi pop H ds r ds', (0 < H)%Z -> valid_draws ds ->
  shaga_generate hi pop H ds = Some (r, ds') -> length r = pop /\ Forall (pair_ok H hi) r.
Proof. exact shaga_ranges. Qed.
Print Assumptions C15_shaga_ranges.

Theorem C15_pair_ok_meaning : forall H hi t, pair_ok H hi t <->
  (0 <= fst (fst t) < H)%Z /\ (0 < snd (fst t) /\ snd (fst t) <= hi) /\ (0 <= snd t /\ snd t <= 1).
Proof. intros. reflexivity. Qed.
Print Assumptions C15_pair_ok_meaning.

(* jDE: regenerated F in [F_min, F_min+F_max] for a uniform value in [0,1]; regenerated CR is that value *)
Theorem C15_jde_ranges : forall F_min F_max r, 0 <= F_max -> 0 <= r -> r <= 1 ->
  F_min <= F_min + r * F_max /\ F_min + r * F_max <= F_min + F_max.
Proof. intros. split; nra. Qed.
Print Assumptions C15_jde_ranges.

Theorem C15_jde_regeneration : forall f mask old vals i, length mask = length old ->
  (length (filter (fun b => b) mask) <= length vals)%nat -> (i < length old)%nat ->
  (nth i mask false = false -> nth i (scatter f mask old vals) 0 = nth i old 0) /\
  (nth i mask false = true -> exists v, In v vals /\ nth i (scatter f mask old vals) 0 = f v).
Proof. exact scatter_spec. Qed.
Print Assumptions C15_jde_regeneration.

(* an individual's jDE parameters change only when its trial is accepted *)
Theorem C15_jde_accept_only : forall par trial old new i, length par = length old -> length trial = length old ->
  length new = length old -> (i < length old)%nat ->
  nth i (accept_only par trial old new) 0 =
    if Qle_bool (nth i par 0) (nth i trial 0) then nth i new 0 else nth i old 0.
Proof.
  induction par as [|p par IH]; intros [|t trial] [|o old] [|n new] i H1 H2 H3 Hi; simpl in *; try lia.
  destruct i as [|i]; [reflexivity|]. apply IH; lia.
Qed.
Print Assumptions C15_jde_accept_only.

(* the Lehmer mean stays between the bounds of its arguments (0 where its denominator is 0) *)
Theorem C15_lehmer_range : forall w x lo hi, 0 <= lo -> lo <= hi ->
  Forall (fun a => 0 <= a) w -> Forall (fun a => lo <= a /\ a <= hi) x -> length w = length x ->
  (0 < wsum w x -> lo <= lehmer w x /\ lehmer w x <= hi) /\ (wsum w x == 0 -> lehmer w x == 0).
Proof. exact lehmer_range. Qed.
Print Assumptions C15_lehmer_range.

Theorem C15_shade_F_cell_range : forall u S, 0 < u /\ u <= 1 -> Forall (fun a => 0 < a /\ a <= 1) S ->
  0 < shade_update_F u S /\ shade_update_F u S <= 1.
Proof. exact shade_update_F_range. Qed.
Print Assumptions C15_shade_F_cell_range.

Theorem C15_shade_CR_cell_range : forall u S df, 0 <= u /\ u <= 1 -> Forall (fun a => 0 <= a /\ a <= 1) S ->
  Forall (fun d => 0 <= d) df -> length df = length S ->
  0 <= shade_update_CR u S df /\ shade_update_CR u S df <= 1.
Proof. exact shade_update_CR_range. Qed.
Print Assumptions C15_shade_CR_cell_range.

Theorem C15_shaga_MR_cell_range : forall hi u S df, 0 < u /\ u <= hi ->
  (exists lo, 0 < lo /\ Forall (fun a => lo <= a /\ a <= hi) S) ->
  Forall (fun d => 0 <= d) df -> length df = length S ->
  0 < shaga_update u S df /\ shaga_update u S df <= hi.
Proof. exact shaga_update_range_MR. Qed.
Print Assumptions C15_shaga_MR_cell_range.

Theorem C15_shaga_CR_cell_range : forall u S df, 0 <= u /\ u <= 1 -> Forall (fun a => 0 <= a /\ a <= 1) S ->
  Forall (fun d => 0 <= d) df -> length df = length S ->
  0 <= shaga_update u S df /\ shaga_update u S df <= 1.
Proof. exact shaga_update_range_CR. Qed.
Print Assumptions C15_shaga_CR_cell_range.

(* no successes: the written cell is a copy of the preceding one *)
Theorem C15_no_success_copy : forall u df, shade_update_F u [] = u /\ shade_update_CR u [] df = u /\ shaga_update u [] df = u.
Proof. intros. repeat split; reflexivity. Qed.
Print Assumptions C15_no_success_copy.

(* memory invariant: one cell per generation, cyclically; only that cell changes; ranges preserved *)
Theorem C15_memory_invariant : forall (Pa Pb : Q -> Prop) ua ub m,
  (forall u, Pa u -> Pa (ua u)) -> (forall u, Pb u -> Pb (ub u)) ->
  mem_ok Pa Pb m ->
  let m' := mem_write ua ub m in
  mem_ok Pa Pb m' /\ mem_k m' = ((mem_k m + 1) mod length (mem_a m))%nat /\
  length (mem_a m') = length (mem_a m) /\
  (forall i, i <> mem_k m' -> nth i (mem_a m') 0 = nth i (mem_a m) 0 /\ nth i (mem_b m') 0 = nth i (mem_b m) 0) /\
  nth (mem_k m') (mem_a m') 0 = ua (nth (mem_k m) (mem_a m) 0) /\
  nth (mem_k m') (mem_b m') 0 = ub (nth (mem_k m) (mem_b m) 0).
Proof. exact mem_write_inv. Qed.
Print Assumptions C15_memory_invariant.

(* SHADE archive: never more than pop_size members, each a former member or a replaced parent;
   appended parents were replaced by STRICTLY better trials *)
Theorem C15_archive : forall (pop_size : nat) (archive worse : list Z) ds a ds',
  valid_draws ds -> append_archive 0%Z pop_size archive worse ds = Some (a, ds') ->
  (length archive <= pop_size)%nat ->
  (length a <= pop_size)%nat /\ forall x, In x a -> In x archive \/ In x worse.
Proof. exact (archive_spec 0%Z). Qed.
Print Assumptions C15_archive.

Theorem C15_archive_strictly_better : forall (par trial : list Q) (xs : list Z) x,
  In x (successful par trial xs) -> exists i, (i < length xs)%nat /\ nth_error xs i = Some x /\
    nth i par 0 < nth i trial 0.
Proof. exact (@successful_spec Z). Qed.
Print Assumptions C15_archive_strictly_better.

(* record of the repaired defect: all improving CR = 0 made SHAGA's weighted Lehmer mean 0/0 = NaN *)
Theorem C15_shaga_lehmer_zero_denominator : wsum (weights [1]) [0] == 0 /\ lehmer (weights [1]) [0] == 0.
Proof. split; vm_compute; reflexivity. Qed.
Print Assumptions C15_shaga_lehmer_zero_denominator.

Example C15_nonvacuous :
  shade_generate 1 4 [DU (1 # 2); DX (-1 # 3); DX (7 # 5); DX (-1 # 10)] = Some ([(2%Z, 1, 0)], []) /\
  mem_k (shade_memory_step {| mem_a := [1 # 2; 1 # 2]; mem_b := [1 # 2; 1 # 2]; mem_k := 1 |} [1; 1] [2; 1] [3 # 4; 1 # 4] [1; 0]) = 0%nat.
Proof. vm_compute. auto. Qed.
Print Assumptions C15_nonvacuous.

(* The tie to the source for SHADE's samplers.  gen/GenCode.v is regenerated on every run from the bodies of
   randc01 and randn01 in optimizers/_shade.py (harness/translate_code.py; semantics of the subset:
   theories/Py.v); the models above are EQUAL to the generated definitions for every list of draws. *)
From TF Require Import Py CodeEqC15.
From TFG Require Import GenCode.

Theorem C15_code_randc01 : forall u ds, py_randc01 u ds = randc01 ds.
Proof. exact code_randc01. Qed.
Print Assumptions C15_code_randc01.

Theorem C15_code_randn01 : forall u ds, py_randn01 u ds = randn01 ds.
Proof. exact code_randn01. Qed.
Print Assumptions C15_code_randn01.

Theorem C15_src_randn01_range : forall u ds v ds', py_randn01 u ds = Some (v, ds') -> (0 <= v /\ v <= 1)%Q.
Proof. intros u ds v ds' H. rewrite code_randn01 in H. exact (proj1 (randn01_range _ _ _ H)). Qed.
Print Assumptions C15_src_randn01_range.

(* The tie to the source for the update rules and the per-individual generators.  lehmer_mean (both call shapes),
   SHADE._update_u_F / _update_u_CR / _generate_F_CR, SHAGA._update_u / _randc / _randn / _generate_MR_CR and
   jDE._get_mutate_F / _get_mutate_CR are plain Python; their bodies are translated on every run (self._x reads
   become parameters, stores into self are rejected) and proved equal to the models the theorems above are about
   (== where the source and the model order the rational arithmetic differently). *)
From TF Require Import CodeEqAdapt.
Open Scope Q_scope.

Theorem C15_code_lehmer_weighted : forall x w, py_lehmer_mean_weighted x w == lehmer w x.
Proof. exact code_lehmer_weighted. Qed.
Print Assumptions C15_code_lehmer_weighted.

Theorem C15_code_lehmer_unweighted : forall x, py_lehmer_mean_unweighted x == lehmer (ones (length x)) x.
Proof. exact code_lehmer_unweighted. Qed.
Print Assumptions C15_code_lehmer_unweighted.

Theorem C15_code_SHADE_update_u_F : forall u S, py_SHADE_update_u_F u S == shade_update_F u S.
Proof. exact code_SHADE_update_u_F. Qed.
Print Assumptions C15_code_SHADE_update_u_F.

Theorem C15_code_SHADE_update_u_CR : forall u S df, py_SHADE_update_u_CR u S df == shade_update_CR u S df.
Proof. exact code_SHADE_update_u_CR. Qed.
Print Assumptions C15_code_SHADE_update_u_CR.

Theorem C15_code_SHAGA_update_u : forall u S df, py_SHAGA_update_u u S df == shaga_update u S df.
Proof. exact code_SHAGA_update_u. Qed.
Print Assumptions C15_code_SHAGA_update_u.

Theorem C15_code_SHAGA_randc : forall str_len u scale ds,
  py_SHAGA_randc str_len u scale ds = randc_hi (ZtoQ 5 / ZtoQ str_len) ds.
Proof. exact code_SHAGA_randc. Qed.
Print Assumptions C15_code_SHAGA_randc.

Theorem C15_code_SHAGA_randn : forall u scale ds, py_SHAGA_randn u scale ds = randn01 ds.
Proof. exact code_SHAGA_randn. Qed.
Print Assumptions C15_code_SHAGA_randn.

Theorem C15_code_SHADE_generate_F_CR : forall (pop : nat) H HF HCR ds,
  py_SHADE_generate_F_CR (Z.of_nat pop) H HF HCR ds = bind (shade_generate pop H) (fun l => ret (pairs_out l)) ds.
Proof. exact code_SHADE_generate_F_CR. Qed.
Print Assumptions C15_code_SHADE_generate_F_CR.

Theorem C15_code_SHAGA_generate_MR_CR : forall (pop : nat) H HMR HCR str_len ds,
  py_SHAGA_generate_MR_CR (Z.of_nat pop) H HMR HCR str_len ds
  = bind (shaga_generate (ZtoQ 5 / ZtoQ str_len) pop H) (fun l => ret (pairs_out l)) ds.
Proof. exact code_SHAGA_generate_MR_CR. Qed.
Print Assumptions C15_code_SHAGA_generate_MR_CR.

Theorem C15_code_jDE_get_mutate_F : forall F tF Fmin Fmax ds,
  py_jDE_get_mutate_F F (zlen F) tF Fmin Fmax ds = jde_mutate (fun r => Fmin + Fmax * r) tF F ds.
Proof. exact code_jDE_get_mutate_F. Qed.
Print Assumptions C15_code_jDE_get_mutate_F.

Theorem C15_code_jDE_get_mutate_CR : forall CR tCR ds, py_jDE_get_mutate_CR CR (zlen CR) tCR ds = jde_mutate_CR tCR CR ds.
Proof. exact code_jDE_get_mutate_CR. Qed.
Print Assumptions C15_code_jDE_get_mutate_CR.

(* the ranges, stated about the source's own (generated) definitions *)
Theorem C15_src_SHADE_update_u_F_range : forall u S, 0 < u /\ u <= 1 -> Forall (fun a => 0 < a /\ a <= 1) S ->
  0 < py_SHADE_update_u_F u S /\ py_SHADE_update_u_F u S <= 1.
Proof. exact src_SHADE_update_u_F_range. Qed.
Print Assumptions C15_src_SHADE_update_u_F_range.

Theorem C15_src_SHADE_update_u_CR_range : forall u S df, 0 <= u /\ u <= 1 -> Forall (fun a => 0 <= a /\ a <= 1) S ->
  Forall (fun d => 0 <= d) df -> length df = length S ->
  0 <= py_SHADE_update_u_CR u S df /\ py_SHADE_update_u_CR u S df <= 1.
Proof. exact src_SHADE_update_u_CR_range. Qed.
Print Assumptions C15_src_SHADE_update_u_CR_range.

Theorem C15_src_SHAGA_update_u_range_MR : forall hi u S df, 0 < u /\ u <= hi ->
  (exists lo, 0 < lo /\ Forall (fun a => lo <= a /\ a <= hi) S) ->
  Forall (fun d => 0 <= d) df -> length df = length S ->
  0 < py_SHAGA_update_u u S df /\ py_SHAGA_update_u u S df <= hi.
Proof. exact src_SHAGA_update_u_range_MR. Qed.
Print Assumptions C15_src_SHAGA_update_u_range_MR.

Theorem C15_src_SHAGA_update_u_range_CR : forall u S df, 0 <= u /\ u <= 1 -> Forall (fun a => 0 <= a /\ a <= 1) S ->
  Forall (fun d => 0 <= d) df -> length df = length S ->
  0 <= py_SHAGA_update_u u S df /\ py_SHAGA_update_u u S df <= 1.
Proof. exact src_SHAGA_update_u_range_CR. Qed.
Print Assumptions C15_src_SHAGA_update_u_range_CR.

Theorem C15_src_no_success_copy : forall u df,
  py_SHADE_update_u_F u [] = u /\ py_SHADE_update_u_CR u [] df = u /\ py_SHAGA_update_u u [] df = u.
Proof. exact src_no_success_copy. Qed.
Print Assumptions C15_src_no_success_copy.

Theorem C15_src_lehmer_zero_denominator : forall x w, sumQ (vmulv w (vpow x 1)) == 0 -> py_lehmer_mean_weighted x w = 0.
Proof. exact src_lehmer_zero_denominator. Qed.
Print Assumptions C15_src_lehmer_zero_denominator.

Theorem C15_src_SHADE_generate_ranges : forall (pop : nat) H HF HCR ds Fs CRs ds', (0 < H)%Z -> valid_draws ds ->
  py_SHADE_generate_F_CR (Z.of_nat pop) H HF HCR ds = Some ((Fs, CRs), ds') ->
  length Fs = pop /\ length CRs = pop /\ Forall (fun a => 0 < a /\ a <= 1) Fs /\ Forall (fun a => 0 <= a /\ a <= 1) CRs.
Proof. exact src_SHADE_generate_ranges. Qed.
Print Assumptions C15_src_SHADE_generate_ranges.

Theorem C15_src_SHAGA_generate_ranges : forall (pop : nat) H HMR HCR str_len ds MRs CRs ds', (0 < H)%Z -> valid_draws ds ->
  py_SHAGA_generate_MR_CR (Z.of_nat pop) H HMR HCR str_len ds = Some ((MRs, CRs), ds') ->
  length MRs = pop /\ length CRs = pop /\ Forall (fun a => 0 < a /\ a <= ZtoQ 5 / ZtoQ str_len) MRs /\ Forall (fun a => 0 <= a /\ a <= 1) CRs.
Proof. exact src_SHAGA_generate_ranges. Qed.
Print Assumptions C15_src_SHAGA_generate_ranges.

(* The memory write, the archive and accept-only in the generation step itself.  SHADE / SHAGA / jDE `_get_new_population`, translated on
   every run (gen/GenLoop.v; random parts as oracles), write the memories exactly as shade_memory_step / shaga_memory_step say, put exactly
   the strictly improved parents into the archive, and change jDE's per-individual parameters only where the trial was accepted. *)
From TF Require Import EALoop CodeEqStep CodeEqAdaptStep.
From TFG Require Import GenLoop.
Open Scope Z_scope.

Theorem C15_code_shade_memory : forall (G P : Type) (g2p : G -> P) (f : P -> Q) par_value sh_trials sh_generate sh_append (self : SHADE G P),
  0 <= sh_k G P self -> sh_H_size G P self = zlen (sh_H_F G P self) ->
  let par := ea_fitness_i G P (sh_ea G P self) in
  let trial := trial_fit G P g2p f par_value (sh_ea G P self) (sh_trials (sh_pre G P sh_generate self)) in
  let m' := shade_memory_step (sh_mem G P self) par trial (fst (sh_generate self)) (snd (sh_generate self)) in
  let self' := sh_new G P g2p f par_value sh_trials sh_generate sh_append self in
  Forall2 Qeq (sh_H_F G P self') (mem_a m') /\ Forall2 Qeq (sh_H_CR G P self') (mem_b m') /\ sh_k G P self' = Z.of_nat (mem_k m').
Proof. exact code_shade_memory. Qed.
Print Assumptions C15_code_shade_memory.

Theorem C15_code_shaga_memory : forall (G P : Type) (g2p : G -> P) (f : P -> Q) par_value sg_trials sg_generate (self : SHAGA G P),
  0 <= sg_k G P self -> sg_H_size G P self = zlen (sg_H_MR G P self) ->
  let par := ea_fitness_i G P (sg_ea G P self) in
  let trial := trial_fit G P g2p f par_value (sg_ea G P self) (sg_trials (sg_pre G P sg_generate self)) in
  let m' := shaga_memory_step (sg_mem G P self) par trial (fst (sg_generate self)) (snd (sg_generate self)) in
  let self' := sg_new G P g2p f par_value sg_trials sg_generate self in
  Forall2 Qeq (sg_H_MR G P self') (mem_a m') /\ Forall2 Qeq (sg_H_CR G P self') (mem_b m') /\ sg_k G P self' = Z.of_nat (mem_k m').
Proof. exact code_shaga_memory. Qed.
Print Assumptions C15_code_shaga_memory.

Theorem C15_code_shade_archive : forall (G P : Type) (g2p : G -> P) (f : P -> Q) par_value sh_trials sh_generate sh_append (self : SHADE G P),
  exists s, sh_population_g_archive_i G P (sh_new G P g2p f par_value sh_trials sh_generate sh_append self)
  = sh_append s (sh_population_g_archive_i G P self)
      (successful (ea_fitness_i G P (sh_ea G P self)) (trial_fit G P g2p f par_value (sh_ea G P self) (sh_trials (sh_pre G P sh_generate self)))
                  (ea_population_g_i G P (sh_ea G P self))).
Proof. exact code_shade_archive. Qed.
Print Assumptions C15_code_shade_archive.

Theorem C15_code_jde_accept_only : forall (G P : Type) (g2p : G -> P) (f : P -> Q) par_value jd_trials jd_mutate_F jd_mutate_CR (self : jDE G P),
  let par := ea_fitness_i G P (jd_ea G P self) in
  let trial := trial_fit G P g2p f par_value (jd_ea G P self) (jd_trials self (jd_mutate_F self) (jd_mutate_CR self)) in
  let self' := jd_new G P g2p f par_value jd_trials jd_mutate_F jd_mutate_CR self in
  jd_F G P self' = accept_only par trial (jd_F G P self) (jd_mutate_F self) /\
  jd_CR G P self' = accept_only par trial (jd_CR G P self) (jd_mutate_CR self).
Proof. exact code_jde_accept_only. Qed.
Print Assumptions C15_code_jde_accept_only.

(* SHADE._append_archive and the row shuffle it uses (utils.random.sattolo_shuffle_2d), translated on every run, ARE the model's
   append_archive: the archive never exceeds pop_size and holds only former archive members and replaced parents *)
Theorem C15_code_SHADE_append_archive : forall (pop_size : nat) (archive worse : list (list Q)) ds, valid_draws ds ->
  py_SHADE_append_archive (Z.of_nat pop_size) archive worse ds = append_archive [] pop_size archive worse ds.
Proof. exact code_SHADE_append_archive. Qed.
Print Assumptions C15_code_SHADE_append_archive.

Theorem C15_src_SHADE_append_archive : forall (pop_size : nat) (archive worse : list (list Q)) ds a ds', valid_draws ds ->
  py_SHADE_append_archive (Z.of_nat pop_size) archive worse ds = Some (a, ds') -> (length archive <= pop_size)%nat ->
  (length a <= pop_size)%nat /\ (forall x, In x a -> In x archive \/ In x worse).
Proof. exact src_SHADE_append_archive. Qed.
Print Assumptions C15_src_SHADE_append_archive.
