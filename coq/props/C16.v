(* C16 — parallel evaluation is equivalent to serial evaluation.
   Models in theories/Split.v, SplitFloat.v; proofs in theories/SplitProofs.v and CodeEqC16.v (the witness against
   the code before the repair and the bounded end-to-end statement are put together here from those).
   get_n_jobs is the model of the REPAIRED _get_n_jobs (negative requests capped by pop_size);
   get_n_jobs_orig is the code before the repair. *)
From Coq Require Import List ZArith Bool Lia.
From TF Require Import Split SplitFloat SplitProofs.
Import ListNotations.
Open Scope Z_scope.

(* every non-zero request is normalised into [1, pop_size] ... *)
Theorem C16_n_jobs_range : forall cpu pop n, 1 <= pop -> n <> 0 ->
  exists j, get_n_jobs cpu pop n = Some j /\ 1 <= j <= pop.
Proof. exact get_n_jobs_range. Qed.
Print Assumptions C16_n_jobs_range.

(* ... n_jobs = 0 is rejected (ValueError) ... *)
Theorem C16_n_jobs_zero_rejected : forall cpu pop, get_n_jobs cpu pop 0 = None.
Proof. exact get_n_jobs_zero. Qed.
Print Assumptions C16_n_jobs_zero_rejected.

(* ... and the value is the request (joblib's convention cpu+1+n for negative n, at least 1)
   capped by the population size *)
Theorem C16_n_jobs_value : forall cpu pop n, n <> 0 ->
  get_n_jobs cpu pop n = Some (Z.min pop (if n <? 0 then Z.max (cpu + 1 + n) 1 else n)).
Proof. exact get_n_jobs_value. Qed.
Print Assumptions C16_n_jobs_value.

(* record of the defect: the code before the repair did not cap negative requests; witness
   cpu_count = 16, pop_size = 8, n_jobs = -1 -> 16 jobs, and the (bit-exact) split then contains
   empty chunks *)
Theorem C16_n_jobs_negative_refuted :
  exists cpu pop n j, 1 <= cpu /\ 1 <= pop /\ n <> 0 /\
    get_n_jobs_orig cpu pop n = Some j /\ pop < j /\
    existsb (fun ch => match ch with [] => true | _ => false end)
            (split_population (linspace_int pop j) (Zseq 0 (Z.to_nat pop))) = true.
Proof. exists 16, 8, (-1), 16. vm_compute. repeat split; discriminate || reflexivity. Qed.
Print Assumptions C16_n_jobs_negative_refuted.

(* for 1 <= n <= pop and ANY cut vector in the envelope: the cuts are strictly increasing inside
   [0, pop]; _split_population returns exactly n chunks; chunk k is population[c k : c (k+1)]
   (contiguous, in order) of length c (k+1) - c k; no chunk is empty; the concatenation of the
   chunks is the population (every individual exactly once, in population order) *)
Theorem C16_chunks : forall (A : Type) (pop n : Z) (c : Z -> Z) (xs : list A),
  1 <= n <= pop -> Envelope pop n c -> Z.of_nat (length xs) = pop ->
  let chunks := split_population (cut_points c n) xs in
  (forall k, 0 <= k < n -> 0 <= c k < c (k + 1) /\ c (k + 1) <= pop) /\
  length chunks = Z.to_nat n /\
  (forall k, (k < Z.to_nat n)%nat ->
     nth k chunks [] = slice (Z.to_nat (c (Z.of_nat k))) (Z.to_nat (c (Z.of_nat k + 1))) xs /\
     Z.of_nat (length (nth k chunks [])) = c (Z.of_nat k + 1) - c (Z.of_nat k)) /\
  Forall (fun ch => ch <> []) chunks /\
  concat chunks = xs.
Proof. exact chunks_spec. Qed.
Print Assumptions C16_chunks.

(* the exact cut function floor(k*pop/n) is in the envelope *)
Theorem C16_envelope_contains_floor : forall pop n, 1 <= n -> Envelope pop n (cut_floor pop n).
Proof. exact cut_floor_envelope. Qed.
Print Assumptions C16_envelope_contains_floor.

(* parallel = serial for one evaluation of a population: if joblib returns the results in
   submission order and genotype->phenotype and the objective are row-wise, then phenotypes,
   fitness values and the evaluation counter after _get_phenotype/_get_fitness with n jobs equal
   those of the serial path (n_jobs = 1), which is one call on the whole population *)
Theorem C16_parallel_is_serial :
  forall (G P F : Type) (parallel : forall X Y : Type, (X -> Y) -> list X -> list Y),
  (forall X Y (f : X -> Y) l, parallel X Y f l = map f l) ->
  forall (pop n : Z) (c : Z -> Z), 1 <= n <= pop -> Envelope pop n c ->
  forall (g2p : option (list G -> list P)) (coerce : list G -> list P) (fit : list P -> list F),
  (forall f, g2p = Some f -> rowwise f /\ rowcount f) ->
  (g2p = None -> rowcount coerce) ->
  rowwise fit ->
  forall lin1 calls pop_g, Z.of_nat (length pop_g) = pop ->
    evaluate G P F parallel g2p coerce fit n (cut_points c n) calls pop_g =
    evaluate G P F parallel g2p coerce fit 1 lin1 calls pop_g
    /\
    evaluate G P F parallel g2p coerce fit 1 lin1 calls pop_g =
    (let ph := match g2p with Some f => f pop_g | None => coerce pop_g end in
     (ph, fit ph, calls + Z.of_nat (length (fit ph)))).
Proof.
  intros G P F parallel Hord pop n c Hn He g2p coerce fit Hg Hc Hf lin1 calls pop_g Hlen.
  split; [now apply (evaluate_par_ser G P F parallel Hord pop n c Hn He) | apply evaluate_serial; assumption].
Qed.
Print Assumptions C16_parallel_is_serial.

(* hence the whole run: for any optimizer state, any rule producing the next population from the
   state and any state update from what the evaluation returned, the final state, the evaluation
   counter and the recorded history (genotypes, phenotypes, fitness per generation) are the same
   with n jobs as with one *)
Theorem C16_run_parallel_is_serial :
  forall (G P F : Type) (parallel : forall X Y : Type, (X -> Y) -> list X -> list Y),
  (forall X Y (f : X -> Y) l, parallel X Y f l = map f l) ->
  forall (pop n : Z) (c : Z -> Z), 1 <= n <= pop -> Envelope pop n c ->
  forall (g2p : option (list G -> list P)) (coerce : list G -> list P) (fit : list P -> list F),
  (forall f, g2p = Some f -> rowwise f /\ rowcount f) ->
  (g2p = None -> rowcount coerce) ->
  rowwise fit ->
  forall (S : Type) (next : S -> list G) (update : S -> list G -> list P -> list F -> S),
  (forall st, Z.of_nat (length (next st)) = pop) ->
  forall lin1 iters st calls trace,
    run G P F parallel S next update g2p coerce fit n (cut_points c n) iters st calls trace =
    run G P F parallel S next update g2p coerce fit 1 lin1 iters st calls trace.
Proof. exact run_par_ser. Qed.
Print Assumptions C16_run_parallel_is_serial.

(* BOUNDED SWEEP (pop <= 256), by vm_compute: the bit-exact binary64 model of
   numpy.linspace(0, pop, n+1, dtype=int64) lies in the envelope for all 1 <= n <= pop <= 256 *)
Theorem C16_linspace_float_in_envelope_upto256 : forall pop n, 1 <= n <= pop -> pop <= 256 ->
  Envelope pop n (cut_fn (linspace_int pop n)) /\
  cut_points (cut_fn (linspace_int pop n)) n = linspace_int pop n.
Proof. exact linspace_envelope_upto256. Qed.
Print Assumptions C16_linspace_float_in_envelope_upto256.

(* BOUNDED (pop <= 256), end to end for the bit-exact model: any non-zero request, normalised by
   get_n_jobs and cut by the float linspace, gives non-empty contiguous ordered covering chunks *)
Theorem C16_split_population_float_upto256 : forall (A : Type) cpu pop req (xs : list A),
  1 <= pop <= 256 -> req <> 0 -> Z.of_nat (length xs) = pop ->
  exists j, get_n_jobs cpu pop req = Some j /\ 1 <= j <= pop /\
    let pts := linspace_int pop j in
    let chunks := split_population pts xs in
    length chunks = Z.to_nat j /\
    (forall k, (k < Z.to_nat j)%nat ->
       nth k chunks [] = slice (Z.to_nat (nth k pts 0)) (Z.to_nat (nth (S k) pts 0)) xs) /\
    Forall (fun ch => ch <> []) chunks /\
    concat chunks = xs.
Proof.
  intros A cpu pop req xs Hp Hr Hlen.
  destruct (get_n_jobs_range cpu pop req ltac:(lia) Hr) as (j & Ej & Hj).
  exists j. split; [exact Ej|]. split; [exact Hj|].
  destruct (linspace_envelope_upto256 pop j Hj ltac:(lia)) as [He Hc].
  pose proof (chunks_spec A pop j (cut_fn (linspace_int pop j)) xs Hj He Hlen) as H.
  rewrite Hc in H. cbv zeta in *. destruct H as (_ & H1 & H2 & H3 & H4).
  repeat split; auto.
  intros k Hk. destruct (H2 k Hk) as [E _]. rewrite E. unfold cut_fn.
  rewrite Nat2Z.id. replace (Z.to_nat (Z.of_nat k + 1)) with (S k) by lia. reflexivity.
Qed.
Print Assumptions C16_split_population_float_upto256.

(* the hypotheses are satisfiable: pop = 30, n = 22 is a pair where numpy deviates from the exact
   floor (cut 11 is 14, not 15); the float cut vector is in the envelope, and a row-wise
   objective exists *)
Example C16_nonvacuous :
  (1 <= 22 <= 30) /\ Envelope 30 22 (cut_fn (linspace_int 30 22)) /\
  cut_fn (linspace_int 30 22) 11 = 14 /\ cut_floor 30 22 11 = 15 /\
  rowwise (map (fun x : Z => x + 1)) /\ rowcount (map (fun x : Z => x + 1)) /\
  (exists j, get_n_jobs 16 8 (-1) = Some j /\ j = 8).
Proof.
  split; [split; discriminate|].
  split; [apply linspace_envelope_upto256; [split; discriminate | discriminate]|].
  split; [vm_compute; reflexivity|].
  split; [vm_compute; reflexivity|].
  split; [intros a b; apply map_app|].
  split; [intros a; apply map_length|].
  exists 8. split; reflexivity.
Qed.
Print Assumptions C16_nonvacuous.

(* The tie to the source for the worker-count normalisation.  EvolutionaryAlgorithm._get_n_jobs is translated on every run
   (method: self._pop_size and os.cpu_count() are parameters, `raise` = no result) and IS get_n_jobs. *)
From TF Require Import Py CodeEqC16.
From TFG Require Import GenCode.
Open Scope Z_scope.

Theorem C16_code_get_n_jobs : forall cpu pop n ds,
  py_EA_get_n_jobs cpu pop n ds = match get_n_jobs cpu pop n with Some v => Some (v, ds) | None => None end.
Proof. exact code_get_n_jobs. Qed.
Print Assumptions C16_code_get_n_jobs.

Theorem C16_src_get_n_jobs_range : forall cpu pop n v ds ds', 1 <= pop ->
  py_EA_get_n_jobs cpu pop n ds = Some (v, ds') -> 1 <= v <= pop /\ n <> 0 /\ ds' = ds.
Proof. exact src_get_n_jobs_range. Qed.
Print Assumptions C16_src_get_n_jobs_range.
