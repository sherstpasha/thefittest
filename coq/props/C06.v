(* C06 — binary GA family: genotypes stay binary, operators do what they are named.
   Statements; each is a theorem of theories/BinaryOpsProofs.v, PoolsClosed.v, CodeEqC06.v or CodeEqNewIndivid.v, or follows
   from those in a line or two; pools regenerated in gen/GenPools.v. *)
From Coq Require Import String.
From TF Require Import Base RandomPrims BinaryOps BinaryOpsProofs Pools C06Check PoolsClosed.
From TFG Require Import GenPools.
Close Scope string_scope.
Open Scope Q_scope.

(* every child of a crossover takes, at every locus, that locus of one of the supplied parents *)
Theorem C06_gene_from_parent_one_point : forall ps c coin, (2 <= length ps)%nat ->
  from_parents ps (one_point_child ps c coin).
Proof. exact one_point_child_from_parents. Qed.
Print Assumptions C06_gene_from_parent_one_point.

Theorem C06_gene_from_parent_two_point : forall ps c0 c1 coin, (2 <= length ps)%nat ->
  from_parents ps (two_point_child ps c0 c1 coin).
Proof. exact two_point_child_from_parents. Qed.
Print Assumptions C06_gene_from_parent_two_point.

Theorem C06_gene_from_parent_uniform : forall ps fitness rank ds child ds',
  valid_draws ds -> length fitness = length ps ->
  uniform_crossover ps fitness rank ds = Some (child, ds') ->
  from_parents ps child /\ exists ch, length ch = width ps /\ child = from_choice ps ch.
Proof. exact uniform_from_parents. Qed.
Print Assumptions C06_gene_from_parent_uniform.

Theorem C06_gene_from_parent_weighted : forall ps w ds ch ds',
  w <> [] -> length w = length ps ->
  random_weighted_sample w (width ps) true ds = Some (ch, ds') ->
  from_parents ps (from_choice ps ch).
Proof. exact uniform_weighted_from_parents. Qed.
Print Assumptions C06_gene_from_parent_weighted.

Theorem C06_binary_closed : forall ps child,
  (forall p, (p < length ps)%nat -> binary (nth p ps []) /\ length (nth p ps []) = width ps) ->
  from_parents ps child -> binary child.
Proof. exact from_parents_binary. Qed.
Print Assumptions C06_binary_closed.

Theorem C06_empty_clone : forall ps ds c ds',
  empty_crossover ps ds = Some (c, ds') -> c = nth 0 ps [] /\ ds' = ds.
Proof. exact empty_clone. Qed.
Print Assumptions C06_empty_clone.

(* one cut: loci 0..c from one parent, c+1.. from the other; every such child is reachable *)
Theorem C06_one_point_sound : forall ps ds child ds',
  valid_draws ds -> one_point_crossover ps ds = Some (child, ds') ->
  exists c coin, (0 <= c < Z.of_nat (width ps))%Z /\ child = one_point_child ps c coin.
Proof. exact one_point_sound. Qed.
Print Assumptions C06_one_point_sound.

Theorem C06_one_point_structure : forall ps c coin i, (i < width ps)%nat ->
  nth i (one_point_child ps c coin) 0%Z =
  if (Z.of_nat i <=? c)%Z then gene ps (if coin then 0 else 1)%nat i else gene ps (if coin then 1 else 0)%nat i.
Proof. exact one_point_child_structure. Qed.
Print Assumptions C06_one_point_structure.

Theorem C06_one_point_complete : forall ps c coin, (0 <= c < Z.of_nat (width ps))%Z ->
  exists ds, valid_draws ds /\ one_point_crossover ps ds = Some (one_point_child ps c coin, []).
Proof. exact one_point_complete. Qed.
Print Assumptions C06_one_point_complete.

(* two cuts c0 < c1: the segment [c0, c1] from the other parent *)
Theorem C06_two_point_sound : forall ps ds child ds',
  valid_draws ds -> two_point_crossover ps ds = Some (child, ds') ->
  exists c0 c1 coin, (0 <= c0 < c1)%Z /\ (c1 < Z.of_nat (width ps))%Z /\ child = two_point_child ps c0 c1 coin.
Proof. exact two_point_sound. Qed.
Print Assumptions C06_two_point_sound.

Theorem C06_two_point_complete : forall ps c0 c1 coin, (0 <= c0 < c1)%Z -> (c1 < Z.of_nat (width ps))%Z ->
  exists ds, valid_draws ds /\ two_point_crossover ps ds = Some (two_point_child ps c0 c1 coin, []).
Proof. exact two_point_complete. Qed.
Print Assumptions C06_two_point_complete.

(* per-locus choice: every choice vector over the k parents is reachable *)
Theorem C06_uniform_complete : forall ps fitness rank ch,
  length ch = width ps -> Forall (fun v => (0 <= v < Z.of_nat (length fitness))%Z) ch ->
  exists ds, valid_draws ds /\ uniform_crossover ps fitness rank ds = Some (from_choice ps ch, []).
Proof. exact uniform_complete. Qed.
Print Assumptions C06_uniform_complete.

(* tournament variant: per locus two contestants drawn from the parents, the donor is a fitter one *)
Theorem C06_uniform_tour : forall ps fitness rank ds child ds',
  valid_draws ds -> uniform_tournament_crossover ps fitness rank ds = Some (child, ds') ->
  from_parents ps child /\
  exists t, length t = (2 * width ps)%nat /\ Forall (fun v => (0 <= v < Z.of_nat (length ps))%Z) t /\
    forall i, (i < width ps)%nat ->
      let a := nth (2 * i) t 0%Z in let b := nth (2 * i + 1) t 0%Z in
      exists w, (w = a \/ w = b) /\ nth i child 0%Z = gene ps (Z.to_nat w) i /\
        nth (Z.to_nat a) fitness 0 <= nth (Z.to_nat w) fitness 0 /\
        nth (Z.to_nat b) fitness 0 <= nth (Z.to_nat w) fitness 0.
Proof. exact uniform_tour_sound. Qed.
Print Assumptions C06_uniform_tour.

Theorem C06_uniform_tour_every_parent_can_donate : forall ps fitness rank p, (p < length ps)%nat ->
  exists ds, valid_draws ds /\
    uniform_tournament_crossover ps fitness rank ds = Some (build (width ps) (fun i => gene ps p i), []).
Proof. exact uniform_tour_every_parent_can_donate. Qed.
Print Assumptions C06_uniform_tour_every_parent_can_donate.

(* the code before the repair used the arg-max position as the parent index: only parents 0 and 1 could ever donate *)
Theorem C06_uniform_tour_old_refuted :
  exists ps fitness rank, (3 <= length ps)%nat /\
    forall ds child ds', uniform_tournament_crossover_old ps fitness rank ds = Some (child, ds') ->
      nth 0 child 0%Z <> gene ps 2 0.
Proof.
  exists [[0]; [0]; [1]]%Z, [1; 1; 5], [1; 1; 1]. split; [simpl; lia|].
  intros ds child ds' H. unfold uniform_tournament_crossover_old in H. minv H.
  unfold from_choice, width, build, gene. cbn [nth length seq map].
  assert (Hp : forall t, nth 0 (pair_positions [1; 1; 5] t) 0%Z = 0%Z \/ nth 0 (pair_positions [1; 1; 5] t) 0%Z = 1%Z).
  { intros [|a [|b r]]; cbn; auto. destruct (Qltb _ _); auto. }
  destruct (Hp l) as [-> | ->]; cbn; discriminate.
Qed.
Print Assumptions C06_uniform_tour_old_refuted.

(* binomial: at least one donor locus, every other locus donor-or-parent *)
Theorem C06_binomial_at_least_one : forall individ mutant CR ds child ds',
  valid_draws ds -> (0 < length individ)%nat ->
  binomialGA individ mutant CR ds = Some (child, ds') ->
  length child = length individ /\
  exists j, (j < length individ)%nat /\ nth j child 0%Z = nth j mutant 0%Z /\
    forall i, (i < length individ)%nat -> nth i child 0%Z = nth i mutant 0%Z \/ nth i child 0%Z = nth i individ 0%Z.
Proof. rewrite binomialGA_is_gen. exact (RandomPrimsProofs2.binomial_gen_structure 0%Z). Qed.
Print Assumptions C06_binomial_at_least_one.

(* flip mutation: each bit flipped exactly when its own coin says so; never at 0, always at 1 *)
Theorem C06_flip : forall x p ds child ds', flip_mutation x p ds = Some (child, ds') ->
  exists cs, length cs = length x /\ child = flip_child x cs.
Proof. exact flip_sound. Qed.
Print Assumptions C06_flip.

Theorem C06_flip_per_locus : forall x cs i, (i < length x)%nat ->
  nth i (flip_child x cs) 0%Z = if nth i cs false then (1 - nth i x 0)%Z else nth i x 0%Z.
Proof. exact flip_per_locus. Qed.
Print Assumptions C06_flip_per_locus.

Theorem C06_flip_never_at_0 : forall x p ds child ds', valid_draws ds -> p <= 0 ->
  flip_mutation x p ds = Some (child, ds') -> child = build (length x) (fun i => nth i x 0%Z).
Proof. intros x p ds child ds' Hv Hp. apply (flip_all_same false); [exact Hv|]. intros u Hu0 Hu1. apply Qltb_ge. lra. Qed.
Print Assumptions C06_flip_never_at_0.

Theorem C06_flip_always_at_1 : forall x p ds child ds', valid_draws ds -> 1 <= p ->
  flip_mutation x p ds = Some (child, ds') -> child = build (length x) (fun i => (1 - nth i x 0)%Z).
Proof. intros x p ds child ds' Hv Hp. apply (flip_all_same true); [exact Hv|]. intros u Hu0 Hu1. apply Qltb_lt. lra. Qed.
Print Assumptions C06_flip_always_at_1.

Theorem C06_flip_binary : forall x cs, binary x -> binary (flip_child x cs) /\ length (flip_child x cs) = length x.
Proof. exact flip_binary. Qed.
Print Assumptions C06_flip_binary.

(* presets = k / str_len; custom rate is used as given *)
Theorem C06_rate_preset : forall proba len,
  mutation_rate proba false len = proba / inject_Z (Z.of_nat len) /\ mutation_rate proba true len = proba.
Proof. exact rate_preset. Qed.
Print Assumptions C06_rate_preset.

(* one generation step: selection -> crossover -> mutation yields a binary row of the same length *)
Theorem C06_population_shape :
  forall selection tour quantity crossover proba is_const pop fscale frank n ds child ds',
  pop_ok n pop -> (0 < quantity)%nat ->
  (forall ds r ds', selection fscale frank tour quantity ds = Some (r, ds') ->
      length r = quantity /\ Forall (fun v => (0 <= v < Z.of_nat (length pop))%Z) r) ->
  (forall ps f r ds c ds', crossover ps f r ds = Some (c, ds') -> from_parents ps c) ->
  new_individ selection tour quantity crossover proba is_const pop fscale frank ds = Some (child, ds') ->
  binary child /\ length child = n.
Proof. exact new_individ_shape. Qed.
Print Assumptions C06_population_shape.

(* a whole run, as far as shapes go: if every generation consists of pop_size binary rows of length n (ga_step assumes
   this of the children, see C06_ga_step_meaning; C06_population_shape / C06_pools_step_closed show it of each outcome of
   new_individ) and elitism overwrites the last slot by such a row, so does every later generation *)
Theorem C06_run_shape : forall n pop_size pop pop', (0 < pop_size)%nat ->
  ga_run n pop_size pop pop' -> Forall (row_ok n) pop -> length pop = pop_size ->
  Forall (row_ok n) pop' /\ length pop' = pop_size.
Proof. exact ga_run_shape. Qed.
Print Assumptions C06_run_shape.

Theorem C06_ga_step_meaning : forall n pop_size pop pop', ga_step n pop_size pop pop' <->
  (exists children, length children = pop_size /\ Forall (row_ok n) children /\
     (pop' = children \/ exists best, row_ok n best /\ pop' = removelast children ++ [best])).
Proof.
  intros n ps pop pop'. split.
  - intros [p c Hl Hc|p c b Hl Hc Hb]; exists c; repeat split; auto. right. eauto.
  - intros (c & Hl & Hc & [->|(b & Hb & ->)]); [apply ga_step_plain|apply ga_step_elite]; auto.
Qed.
Print Assumptions C06_ga_step_meaning.

(* wiring: the pools extracted from the current source bind every name to the function and the
   parameter the name promises *)
Theorem C06_pools_named :
  table_ok selection_pool expected_selection = true /\
  table_ok crossover_pool expected_crossover = true /\
  table_ok mutation_pool expected_mutation = true.
Proof. vm_compute. auto. Qed.
Print Assumptions C06_pools_named.

(* closure over the pools AS EXTRACTED FROM THE SOURCE: whatever names are looked up in the generated tables, one step
   selection -> crossover -> flip mutation (GeneticAlgorithm / SelfCGA; PDPGA with its extra draw when pdp = true) on a
   binary population yields a binary row of the same length, for every outcome of the draws.  The two table premises of
   the general theorem (every crossover entry promises at least the parents its function needs, every tournament entry
   a positive size) are discharged by computation on the generated tables. *)
Theorem C06_pools_step_closed : forall pdp a sn cn mn pop fscale frank n ds child ds',
  attrs_ok a -> pop_ok n pop -> pop <> [] -> valid_draws ds ->
  length fscale = length pop -> length frank = length pop ->
  ga_new_individ pdp selection_pool crossover_pool mutation_pool a sn cn mn pop fscale frank ds = Some (child, ds') ->
  binary child /\ length child = n.
Proof.
  intros pdp a sn cn mn pop fscale frank n ds child ds' Ha.
  apply ga_new_individ_closed; [vm_compute; reflexivity | vm_compute; reflexivity | exact Ha].
Qed.
Print Assumptions C06_pools_step_closed.

Theorem C06_pools_step_closed_any_table : forall pdp sp cp mp a sn cn mn pop fscale frank n ds child ds',
  sel_table_ok sp = true -> cx_table_ok cp = true -> attrs_ok a ->
  pop_ok n pop -> pop <> [] -> valid_draws ds ->
  length fscale = length pop -> length frank = length pop ->
  ga_new_individ pdp sp cp mp a sn cn mn pop fscale frank ds = Some (child, ds') ->
  binary child /\ length child = n.
Proof. exact ga_new_individ_closed. Qed.
Print Assumptions C06_pools_step_closed_any_table.

Example C06_pools_step_nonvacuous :
  attrs_ok {| a_tour := 2; a_parents := 2; a_rate := 0 |} /\
  ga_new_individ false selection_pool crossover_pool mutation_pool {| a_tour := 2; a_parents := 2; a_rate := 0 |}
    "tournament_3"%string "one_point"%string "weak"%string [[0; 0]; [1; 1]; [0; 1]]%Z [0; 1; 1 # 2] [1; 3; 2]
    [DI 3 0; DI 3 1; DI 3 2; DI 3 2; DI 3 0; DI 3 1; DI 2 0; DU (1 # 4); DU (1 # 2); DU (1 # 2)] = Some ([1; 1]%Z, []) /\
  ga_new_individ true selection_pool crossover_pool mutation_pool {| a_tour := 2; a_parents := 3; a_rate := 1 |}
    "rank"%string "uniform_k"%string "custom_rate"%string [[0; 0]; [1; 1]; [0; 1]]%Z [0; 1; 1 # 2] [1; 3; 2]
    [DU (1 # 10); DU (1 # 2); DU (9 # 10); DI 3 1; DI 3 0; DI 3 2; DU (1 # 2); DU (1 # 2)] = Some ([1; 0]%Z, []).
Proof. unfold attrs_ok. cbn [a_tour a_parents]. split; [lia|]. vm_compute. auto. Qed.
Print Assumptions C06_pools_step_nonvacuous.

Example C06_nonvacuous :
  one_point_crossover [[0; 0; 0; 0]; [1; 1; 1; 1]]%Z [DI 4 1; DU (1 # 4)] = Some ([0; 0; 1; 1]%Z, []) /\
  two_point_crossover [[0; 0; 0; 0]; [1; 1; 1; 1]]%Z [DI 4 2; DI 4 2; DI 4 1; DU (3 # 4)] = Some ([1; 0; 0; 1]%Z, []).
Proof. vm_compute. auto. Qed.
Print Assumptions C06_nonvacuous.

(* The tie to the source.  gen/GenCode.v is regenerated on every run from the bodies of the operators in
   utils/crossovers.py and utils/mutations.py (harness/translate_code.py; semantics of the subset:
   theories/Py.v).  The models the theorems above are about are EQUAL to those generated definitions, for
   every input and every list of draws; headline theorems are restated about the generated definitions. *)
From TF Require Import Py CodeEqC06.
From TFG Require Import GenCode.
Open Scope Z_scope.

Theorem C06_code_empty_crossover : forall ps fitness rank ds,
  ret (py_empty_crossover ps fitness rank) ds = empty_crossover ps ds.
Proof. exact code_empty_crossover. Qed.
Print Assumptions C06_code_empty_crossover.

Theorem C06_code_one_point_crossover : forall ps fitness rank ds, length (nth 1 ps []) = width ps ->
  py_one_point_crossover ps fitness rank ds = one_point_crossover ps ds.
Proof. exact code_one_point_crossover. Qed.
Print Assumptions C06_code_one_point_crossover.

Theorem C06_code_two_point_crossover : forall ps fitness rank ds,
  valid_draws ds -> length (nth 1 ps []) = width ps -> (2 <= width ps)%nat ->
  py_two_point_crossover ps fitness rank ds = two_point_crossover ps ds.
Proof. exact code_two_point_crossover. Qed.
Print Assumptions C06_code_two_point_crossover.

Theorem C06_code_uniform_crossover : forall ps fitness rank ds, valid_draws ds ->
  py_uniform_crossover ps fitness rank ds = uniform_crossover ps fitness rank ds.
Proof. exact code_uniform_crossover. Qed.
Print Assumptions C06_code_uniform_crossover.

Theorem C06_code_uniform_proportional_crossover : forall ps fitness rank ds, fitness <> [] ->
  py_uniform_proportional_crossover ps fitness rank ds = uniform_proportional_crossover ps fitness rank ds.
Proof. exact code_uniform_proportional_crossover. Qed.
Print Assumptions C06_code_uniform_proportional_crossover.

Theorem C06_code_uniform_rank_crossover : forall ps fitness rank ds, rank <> [] ->
  py_uniform_rank_crossover ps fitness rank ds = uniform_rank_crossover ps fitness rank ds.
Proof. exact code_uniform_rank_crossover. Qed.
Print Assumptions C06_code_uniform_rank_crossover.

Theorem C06_code_flip_mutation : forall x p ds, py_flip_mutation x p ds = flip_mutation x p ds.
Proof. exact code_flip_mutation. Qed.
Print Assumptions C06_code_flip_mutation.

Theorem C06_code_binomialGA : forall individ mutant CR ds,
  py_binomialGA individ mutant CR ds = binomialGA individ mutant CR ds.
Proof. exact code_binomialGA. Qed.
Print Assumptions C06_code_binomialGA.

Theorem C06_src_one_point : forall ps fitness rank ds child ds',
  valid_draws ds -> length (nth 1 ps []) = width ps ->
  py_one_point_crossover ps fitness rank ds = Some (child, ds') ->
  exists c coin, 0 <= c < Z.of_nat (width ps) /\ child = one_point_child ps c coin.
Proof. intros ps fitness rank ds child ds' Hv Hw H. rewrite code_one_point_crossover in H by auto. exact (one_point_sound ps ds child ds' Hv H). Qed.
Print Assumptions C06_src_one_point.

Theorem C06_src_two_point : forall ps fitness rank ds child ds',
  valid_draws ds -> length (nth 1 ps []) = width ps -> (2 <= width ps)%nat ->
  py_two_point_crossover ps fitness rank ds = Some (child, ds') ->
  exists c0 c1 coin, 0 <= c0 < c1 /\ c1 < Z.of_nat (width ps) /\ child = two_point_child ps c0 c1 coin.
Proof. intros ps fitness rank ds child ds' Hv Hw H2 H. rewrite code_two_point_crossover in H by auto. exact (two_point_sound ps ds child ds' Hv H). Qed.
Print Assumptions C06_src_two_point.

Theorem C06_src_uniform : forall ps fitness rank ds child ds',
  valid_draws ds -> length fitness = length ps ->
  py_uniform_crossover ps fitness rank ds = Some (child, ds') ->
  from_parents ps child /\ exists ch, length ch = width ps /\ child = from_choice ps ch.
Proof. intros ps fitness rank ds child ds' Hv Hl H. rewrite code_uniform_crossover in H by auto. exact (uniform_from_parents ps fitness rank ds child ds' Hv Hl H). Qed.
Print Assumptions C06_src_uniform.

Theorem C06_src_flip_never_at_0 : forall x p ds child ds', valid_draws ds -> (p <= 0)%Q ->
  py_flip_mutation x p ds = Some (child, ds') -> child = build (length x) (fun i => nth i x 0).
Proof. intros x p ds child ds' Hv Hp H. rewrite code_flip_mutation in H. exact (C06_flip_never_at_0 x p ds child ds' Hv Hp H). Qed.
Print Assumptions C06_src_flip_never_at_0.

Theorem C06_src_flip_always_at_1 : forall x p ds child ds', valid_draws ds -> (1 <= p)%Q ->
  py_flip_mutation x p ds = Some (child, ds') -> child = build (length x) (fun i => 1 - nth i x 0).
Proof. intros x p ds child ds' Hv Hp H. rewrite code_flip_mutation in H. exact (C06_flip_always_at_1 x p ds child ds' Hv Hp H). Qed.
Print Assumptions C06_src_flip_always_at_1.

Theorem C06_src_binomialGA : forall individ mutant CR ds child ds',
  valid_draws ds -> (0 < length individ)%nat ->
  py_binomialGA individ mutant CR ds = Some (child, ds') ->
  length child = length individ /\
  exists j, (j < length individ)%nat /\ nth j child 0 = nth j mutant 0 /\
    forall i, (i < length individ)%nat -> nth i child 0 = nth i mutant 0 \/ nth i child 0 = nth i individ 0.
Proof. intros individ mutant CR ds child ds' Hv Hl H. rewrite code_binomialGA in H. exact (C06_binomial_at_least_one individ mutant CR ds child ds' Hv Hl H). Qed.
Print Assumptions C06_src_binomialGA.

(* "no operator modifies its inputs": the operators named here are in no_param_writes, the list of translated functions in
   which harness/translate_code.py found no write into a parameter *)
Theorem C06_no_param_writes : forall f, In f ["empty_crossover"; "binomialGA"; "one_point_crossover"; "two_point_crossover";
    "uniform_crossover"; "uniform_proportional_crossover"; "uniform_rank_crossover"; "flip_mutation";
    "proportional_selection"; "rank_selection"; "tournament_selection"]%string -> In f no_param_writes.
Proof. apply (incl_existsb String.eqb); [apply String.eqb_eq | reflexivity]. Qed.
Print Assumptions C06_no_param_writes.

Theorem C06_code_uniform_tournament_crossover : forall ps fitness rank ds, valid_draws ds ->
  py_uniform_tournament_crossover ps fitness rank ds = uniform_tournament_crossover ps fitness rank ds.
Proof. exact code_uniform_tournament_crossover. Qed.
Print Assumptions C06_code_uniform_tournament_crossover.

(* SHAGA._get_new_individ_g, translated on every run as a method: second parent by a tournament of two over the raw fitness,
   binomial crossover with the individual, flip mutation at the individual's own rate *)
From TF Require Import CodeEqNewIndivid.
Theorem C06_code_SHAGA_get_new_individ_g : forall fitness pop x MR CR ds,
  valid_draws ds -> (2 <= length fitness)%nat ->
  py_SHAGA_get_new_individ_g fitness pop x MR CR ds = shaga_new_individ pop fitness x MR CR ds.
Proof. exact code_SHAGA_get_new_individ_g. Qed.
Print Assumptions C06_code_SHAGA_get_new_individ_g.

(* GeneticAlgorithm._get_new_individ_g (inherited by SelfCGA), translated on every run with the three unpacked pool entries as
   parameters: for whatever functions and parameters the pools hold under the configured names (the generated pool tables:
   C06_pools_named), the offspring is selection(scaled fitness, ranks, tour, quantity) -> crossover(population, scaled fitness,
   ranks of the selected) -> mutation at the entry's rate (rate / str_len unless the entry is constant-rate) *)
Theorem C06_code_GA_get_new_individ_g : forall
    (selpy : list Q -> list Q -> Z -> Z -> M (list Z)) (sel : list Q -> list Q -> nat -> nat -> M (list Z)) (tour q : nat)
    (cxpy cx : list (list Z) -> list Q -> list Q -> M (list Z)) (mupy : list Z -> Q -> M (list Z))
    (proba : Q) (const : bool) fs fr pop ds,
  selpy fs fr (Z.of_nat tour) (Z.of_nat q) ds = sel fs fr tour q ds ->
  (forall r ds', sel fs fr tour q ds = Some (r, ds') -> Forall (fun v => (0 <= v)%Z) r) ->
  (forall a b c ds', cxpy a b c ds' = cx a b c ds') ->
  (forall c p ds', mupy c p ds' = flip_mutation c p ds') ->
  py_GA_get_new_individ_g selpy (Z.of_nat tour) cxpy (Z.of_nat q) mupy proba const fs fr pop ds
  = new_individ sel tour q cx proba const pop fs fr ds.
Proof. exact code_GA_get_new_individ_g. Qed.
Print Assumptions C06_code_GA_get_new_individ_g.

(* PDPGA._get_new_individ_g: as GeneticAlgorithm's, with ONE extra draw between selection and crossover — the index of the selected
   parent whose raw fitness is remembered (appended to _previous_fitness_i: the appended value is part of the translated result) *)
Theorem C06_code_PDPGA_get_new_individ_g : forall
    (selpy : list Q -> list Q -> Z -> Z -> M (list Z)) (sel : list Q -> list Q -> nat -> nat -> M (list Z)) (tour q : nat)
    (cxpy cx : list (list Z) -> list Q -> list Q -> M (list Z)) (mupy : list Z -> Q -> M (list Z))
    (proba : Q) (const : bool) fs fr fit pop ds,
  selpy fs fr (Z.of_nat tour) (Z.of_nat q) ds = sel fs fr tour q ds ->
  (forall r ds', sel fs fr tour q ds = Some (r, ds') -> Forall (fun v => (0 <= v)%Z) r) ->
  (forall a b c ds', cxpy a b c ds' = cx a b c ds') ->
  (forall c p ds', mupy c p ds' = flip_mutation c p ds') ->
  py_PDPGA_get_new_individ_g selpy (Z.of_nat tour) cxpy (Z.of_nat q) mupy proba const fs fr fit pop ds
  = bind (sel fs fr tour q) (fun r =>
      bind (popI (Z.of_nat (length r))) (fun i =>
        bind (cx (gather [] pop r) (gather 0%Q fs r) (gather 0%Q fr r)) (fun c =>
          bind (flip_mutation c (mutation_rate proba const (length c))) (fun o =>
            ret (getQ (gather 0%Q fit r) i, o))))) ds.
Proof. exact code_PDPGA_get_new_individ_g. Qed.
Print Assumptions C06_code_PDPGA_get_new_individ_g.

Theorem C06_code_PDPGA_offspring : forall
    (selpy : list Q -> list Q -> Z -> Z -> M (list Z)) (sel : list Q -> list Q -> nat -> nat -> M (list Z)) (tour q : nat)
    (cxpy cx : list (list Z) -> list Q -> list Q -> M (list Z)) (mupy : list Z -> Q -> M (list Z))
    (proba : Q) (const : bool) fs fr fit pop ds,
  selpy fs fr (Z.of_nat tour) (Z.of_nat q) ds = sel fs fr tour q ds ->
  (forall r ds', sel fs fr tour q ds = Some (r, ds') -> Forall (fun v => (0 <= v)%Z) r) ->
  (forall a b c ds', cxpy a b c ds' = cx a b c ds') ->
  (forall c p ds', mupy c p ds' = flip_mutation c p ds') ->
  match py_PDPGA_get_new_individ_g selpy (Z.of_nat tour) cxpy (Z.of_nat q) mupy proba const fs fr fit pop ds with
  | Some ((_, child), ds') => new_individ_pdp sel tour q cx proba const pop fs fr ds = Some (child, ds')
  | None => new_individ_pdp sel tour q cx proba const pop fs fr ds = None
  end.
Proof. exact code_PDPGA_offspring. Qed.
Print Assumptions C06_code_PDPGA_offspring.
