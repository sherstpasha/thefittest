(* MetricsProofs.v — the metric loops of Metrics.v equal the textbook (counting / summation)
   definitions, for all inputs (C19). *)
From TF Require Import Base QSum Metrics.
From Coq Require Import Permutation.
Open Scope Q_scope.

Lemma qsum_app1 l x : qsum (l ++ [x]) = qsum l + x.
Proof. unfold qsum. rewrite fold_left_app. reflexivity. Qed.

Lemma qsum_map_seq (f : nat -> Q) n : qsum (map f (seq 0 n)) = sum_upto n f.
Proof.
  induction n as [|n IH]; [reflexivity|].
  rewrite seq_S, map_app. change (map f [(0 + n)%nat]) with [f n].
  rewrite qsum_app1. simpl. now rewrite IH.
Qed.

Lemma sum_upto_ext_lt n (f g : nat -> Q) :
  (forall i, (i < n)%nat -> f i = g i) -> sum_upto n f = sum_upto n g.
Proof.
  induction n as [|n IH]; intros H; simpl; [reflexivity|].
  rewrite IH by (intros; apply H; lia). rewrite H by lia. reflexivity.
Qed.

Lemma sum_upto_eqv n (f g : nat -> Q) :
  (forall i, (i < n)%nat -> f i == g i) -> sum_upto n f == sum_upto n g.
Proof.
  induction n as [|n IH]; intros H; simpl; [reflexivity|].
  rewrite IH by (intros; apply H; lia). rewrite (H n) by lia. reflexivity.
Qed.

Lemma combine_nth_seq {A B} (da : A) (db : B) (y : list A) (p : list B) : length p = length y ->
  combine y p = map (fun i => (nth i y da, nth i p db)) (seq 0 (length y)).
Proof.
  revert p; induction y as [|a y IH]; intros [|b p] H; simpl in *; try discriminate; auto.
  f_equal. rewrite <- seq_shift, map_map. simpl. apply IH. lia.
Qed.

Lemma over_samples_combine {S} (step : S -> nat -> nat -> S) y p s0 : length p = length y ->
  over_samples step y p s0 = fold_left (fun s tq => step s (fst tq) (snd tq)) (combine y p) s0.
Proof.
  intros H. rewrite (combine_nth_seq 0%nat 0%nat y p H), fold_left_map. reflexivity.
Qed.

Lemma incr_length h i : length (incr h i) = length h.
Proof. apply upd_length. Qed.

Lemma nth_incr h i j : (j < length h)%nat ->
  nth j (incr h i) 0%nat = if (i =? j)%nat then S (nth j h 0%nat) else nth j h 0%nat.
Proof.
  intros H. unfold incr. destruct (Nat.eqb_spec i j).
  - subst. apply nth_upd_eq; auto.
  - apply nth_upd_neq; auto.
Qed.

Lemma count_cons {A} (f : A -> bool) a l :
  count f (a :: l) = ((if f a then 1 else 0) + count f l)%nat.
Proof. unfold count; simpl. destruct (f a); reflexivity. Qed.

Lemma count_ext {A} (f g : A -> bool) l : (forall x, f x = g x) -> count f l = count g l.
Proof. intros H. unfold count. now rewrite (filter_ext _ _ H). Qed.

Lemma count_le_length {A} (f : A -> bool) l : (count f l <= length l)%nat.
Proof. induction l; [apply Nat.le_refl|]. rewrite count_cons; simpl. destruct (f a); lia. Qed.

(* one counter array updated at an index selected from the sample *)
Definition bump (sel : nat * nat -> option nat) (h : list nat) (x : nat * nat) : list nat :=
  match sel x with Some i => incr h i | None => h end.
Definition hits (sel : nat * nat -> option nat) (i : nat) (x : nat * nat) : bool :=
  match sel x with Some j => (j =? i)%nat | None => false end.

Lemma bump_length sel h x : length (bump sel h x) = length h.
Proof. unfold bump. destruct (sel x); auto using incr_length. Qed.

Lemma hist_spec sel l : forall h i, (i < length h)%nat ->
  nth i (fold_left (bump sel) l h) 0%nat = (nth i h 0 + count (hits sel i) l)%nat.
Proof.
  induction l as [|x l IH]; intros h i Hi; simpl.
  - unfold count; simpl; lia.
  - rewrite IH by (rewrite bump_length; exact Hi). rewrite count_cons.
    unfold bump, hits. destruct (sel x) as [j|]; [|lia].
    rewrite nth_incr by exact Hi. destruct (j =? i)%nat; lia.
Qed.

Lemma bump_fold_length sel l : forall h, length (fold_left (bump sel) l h) = length h.
Proof. induction l as [|x l IH]; intros h; simpl; [reflexivity|]. now rewrite IH, bump_length. Qed.

Lemma counter_sel sel k l c : (c < k)%nat ->
  nth c (fold_left (bump sel) l (zeros k)) 0%nat = count (hits sel c) l.
Proof.
  intros H. unfold zeros. rewrite hist_spec by (rewrite repeat_length; exact H).
  now rewrite nth_repeat_lt by exact H.
Qed.

Definition sel_tp (x : nat * nat) := if (fst x =? snd x)%nat then Some (fst x) else None.
Definition sel_fn (x : nat * nat) := if (fst x =? snd x)%nat then None else Some (fst x).
Definition sel_fp (x : nat * nat) := if (fst x =? snd x)%nat then None else Some (snd x).

Lemma counters_spec k y p c : (c < k)%nat ->
  nth c (fold_left (bump sel_tp) (combine y p) (zeros k)) 0%nat = TP c y p /\
  nth c (fold_left (bump sel_fn) (combine y p) (zeros k)) 0%nat = FN c y p /\
  nth c (fold_left (bump sel_fp) (combine y p) (zeros k)) 0%nat = FP c y p.
Proof.
  intros H. rewrite !counter_sel by exact H.
  repeat split; apply count_ext; intros [t q]; unfold hits, sel_tp, sel_fn, sel_fp; cbn [fst snd];
    destruct (Nat.eqb_spec t q) as [->|Hne]; destruct (Nat.eqb_spec q c); try reflexivity;
    destruct (Nat.eqb_spec t c); simpl; congruence.
Qed.

Lemma n_classes_label_encoded k y : label_encoded k y -> n_classes y = k.
Proof.
  intros H. unfold n_classes. rewrite <- (seq_length k 0).
  apply Permutation_length, NoDup_Permutation.
  - apply NoDup_nodup.
  - apply seq_NoDup.
  - intros c. rewrite nodup_In, in_seq, (H c). lia.
Qed.

Lemma admissible_pos k y p : admissible k y p -> (0 < k)%nat /\ (0 < length y)%nat.
Proof.
  intros (Hne & Hle & _). destruct y as [|a y]; [congruence|]. split; [|simpl; lia].
  assert (a < k)%nat by (apply Hle; left; reflexivity). lia.
Qed.

Lemma fold_add_indicator {A} (f : A -> bool) l : forall acc,
  fold_left Z.add (map (fun x => if f x then 1%Z else 0%Z) l) acc = (acc + Z.of_nat (count f l))%Z.
Proof.
  induction l as [|x l IH]; intros acc; simpl.
  - unfold count; simpl; lia.
  - rewrite IH, count_cons. destruct (f x); lia.
Qed.

Theorem accuracy_spec y p : length p = length y ->
  accuracy_score y p = Qn (pairs_count Nat.eqb y p) / Qn (length y).
Proof.
  intros H. unfold accuracy_score, pairs_count.
  rewrite (fold_add_indicator (fun tq => (fst tq =? snd tq)%nat)), map_length, combine_length, H, Nat.min_id.
  reflexivity.
Qed.

Lemma cm_step_length cm x : length (cm_step cm x) = length cm.
Proof. apply upd_length. Qed.

Lemma cm_step_nth cm x i : (i < length cm)%nat ->
  nth i (cm_step cm x) [] = if (fst x =? i)%nat then incr (nth i cm []) (snd x) else nth i cm [].
Proof.
  intros H. unfold cm_step. destruct (Nat.eqb_spec (fst x) i) as [E|E].
  - rewrite E. apply nth_upd_eq; auto.
  - apply nth_upd_neq; auto.
Qed.

Lemma cm_fold_length l : forall cm, length (fold_left cm_step l cm) = length cm.
Proof. induction l as [|x l IH]; intros cm; simpl; [reflexivity|]. now rewrite IH, cm_step_length. Qed.

(* row i of the matrix is a counter array bumped at the predictions of the samples of class i *)
Definition sel_row (i : nat) (x : nat * nat) := if (fst x =? i)%nat then Some (snd x) else None.

Lemma cm_fold_row l i : forall cm, (i < length cm)%nat ->
  nth i (fold_left cm_step l cm) [] = fold_left (bump (sel_row i)) l (nth i cm []).
Proof.
  induction l as [|x l IH]; intros cm Hi; simpl; [reflexivity|].
  rewrite IH by (rewrite cm_step_length; exact Hi). f_equal. rewrite cm_step_nth by exact Hi.
  unfold bump, sel_row. destruct (fst x =? i)%nat; reflexivity.
Qed.

Theorem confusion_matrix_spec k y p : admissible k y p ->
  length (confusion_matrix y p) = k /\
  (forall i, (i < k)%nat -> length (nth i (confusion_matrix y p) []) = k) /\
  (forall i j, (i < k)%nat -> (j < k)%nat ->
     nth j (nth i (confusion_matrix y p) []) 0%nat
     = pairs_count (fun t q => (t =? i)%nat && (q =? j)%nat) y p).
Proof.
  intros (_ & Hle & _ & _). unfold confusion_matrix. rewrite (n_classes_label_encoded k y Hle).
  split; [rewrite cm_fold_length; apply repeat_length|].
  assert (Hrow : forall i, (i < k)%nat -> nth i (fold_left cm_step (combine y p) (repeat (zeros k) k)) []
                                   = fold_left (bump (sel_row i)) (combine y p) (zeros k)).
  { intros i Hi. rewrite cm_fold_row by (rewrite repeat_length; exact Hi). now rewrite nth_repeat_lt by exact Hi. }
  split; [intros i Hi|intros i j Hi Hj]; rewrite Hrow by exact Hi.
  - rewrite bump_fold_length. apply repeat_length.
  - rewrite counter_sel by exact Hj. apply count_ext. intros [t q]. unfold hits, sel_row. cbn [fst snd].
    destruct (t =? i)%nat; reflexivity.
Qed.

(* a loop over a pair of states whose step treats each component by itself is a pair of loops *)
Lemma fold_left_pair {A S T} (h : S * T -> A -> S * T) (f : S -> A -> S) (g : T -> A -> T) :
  (forall s t a, h (s, t) a = (f s a, g t a)) ->
  forall l s t, fold_left h l (s, t) = (fold_left f l s, fold_left g l t).
Proof. intros H. induction l as [|a l IH]; intros s t; simpl; [reflexivity|]. rewrite H. apply IH. Qed.

Lemma recall_fold l tp fn :
  fold_left (fun s tq => recall_step s (fst tq) (snd tq)) l (tp, fn)
  = (fold_left (bump sel_tp) l tp, fold_left (bump sel_fn) l fn).
Proof.
  apply fold_left_pair. intros s t [a b]. unfold recall_step, bump, sel_tp, sel_fn. simpl.
  destruct (a =? b)%nat; reflexivity.
Qed.

Lemma class_ratio_score0 tp other : class_ratio tp other = score0 tp other.
Proof. unfold class_ratio, score0, ratio. now rewrite Nat.add_comm. Qed.

Lemma qmean_map_seq (f : nat -> Q) k : qmean (map f (seq 0 k)) = macro k f.
Proof. unfold qmean, macro. now rewrite map_length, seq_length, qsum_map_seq. Qed.

Lemma macro_ext k (f g : nat -> Q) : (forall c, (c < k)%nat -> f c = g c) -> macro k f = macro k g.
Proof. intros H. unfold macro. now rewrite (sum_upto_ext_lt k f g H). Qed.

Theorem recall_spec k y p : admissible k y p ->
  recall_score y p = macro k (fun c => score0 (TP c y p) (FN c y p)).
Proof.
  intros (_ & Hle & Hlen & _). unfold recall_score, recall_counts.
  rewrite (n_classes_label_encoded k y Hle), (over_samples_combine _ _ _ _ Hlen), recall_fold, qmean_map_seq.
  apply macro_ext. intros c Hc. cbv [fst snd].
  destruct (counters_spec k y p c Hc) as (-> & -> & _). apply class_ratio_score0.
Qed.

Theorem precision_spec k y p : admissible k y p ->
  precision_score y p = macro k (fun c => score0 (TP c y p) (FP c y p)).
Proof.
  intros (_ & Hle & Hlen & _). unfold precision_score, precision_counts.
  rewrite (n_classes_label_encoded k y Hle), (over_samples_combine _ _ _ _ Hlen), qmean_map_seq.
  rewrite (fold_left_pair _ (bump sel_tp) (bump sel_fp))
    by (intros s t [a b]; unfold precision_step, bump, sel_tp, sel_fp; simpl; destruct (a =? b)%nat; reflexivity).
  apply macro_ext. intros c Hc. cbv [fst snd].
  destruct (counters_spec k y p c Hc) as (-> & _ & ->). apply class_ratio_score0.
Qed.

(* per-class F1 as the harmonic mean of the counting precision and recall, 0 without true positives *)
Definition f1_textbook (tp fp fn : nat) : Q :=
  if (tp =? 0)%nat then 0 else
    let P := Qn tp / Qn (tp + fp) in
    let R := Qn tp / Qn (tp + fn) in
    2 * (P * R) / (P + R).

Lemma class_f1_textbook tp fn dp : class_f1 tp fn dp = f1_textbook tp dp fn.
Proof.
  unfold class_f1, f1_textbook, ratio. now rewrite (Nat.add_comm dp tp), (Nat.add_comm fn tp).
Qed.

Theorem f1_spec k y p : admissible k y p ->
  f1_score y p = macro k (fun c => f1_textbook (TP c y p) (FP c y p) (FN c y p)).
Proof.
  intros (_ & Hle & Hlen & _). unfold f1_score, f1_counts.
  rewrite (n_classes_label_encoded k y Hle), (over_samples_combine _ _ _ _ Hlen).
  (* the first two arrays are those of recall, the third counts the false positives *)
  rewrite (fold_left_pair _ (fun s tq => recall_step s (fst tq) (snd tq)) (bump sel_fp)), recall_fold, qmean_map_seq
    by (intros [tp fn] dp [a b]; unfold recall_step, bump, sel_fp; simpl; destruct (a =? b)%nat; reflexivity).
  apply macro_ext. intros c Hc.
  destruct (counters_spec k y p c Hc) as (-> & -> & ->). apply class_f1_textbook.
Qed.

Lemma Qn_add a b : Qn (a + b) == Qn a + Qn b. Proof. apply QSum.Qn_add. Qed.
Lemma Qn_pos a : (0 < a)%nat -> 0 < Qn a. Proof. apply QSum.Qn_pos. Qed.
Lemma Qn_nonneg a : 0 <= Qn a. Proof. apply QSum.Qn_nonneg. Qed.

(* the harmonic-mean form equals 2TP / (2TP + FP + FN) (which is 0 when TP = 0) *)
Theorem f1_textbook_counts tp fp fn :
  f1_textbook tp fp fn == Qn (2 * tp) / Qn (2 * tp + fp + fn).
Proof.
  unfold f1_textbook. destruct (Nat.eqb_spec tp 0) as [E|E].
  - subst. simpl. unfold Qn at 1. simpl. unfold Qdiv. rewrite Qmult_0_l. reflexivity.
  - assert (Ha : 0 < Qn tp) by (apply Qn_pos; lia).
    pose proof (Qn_nonneg fp) as Hb. pose proof (Qn_nonneg fn) as Hc.
    replace (2 * tp)%nat with (tp + tp)%nat by lia.
    rewrite !Qn_add. cbv zeta. field.
    assert (0 < Qn tp * (Qn tp + Qn fn)) by (apply Qmult_lt_0_compat; lra).
    assert (0 < Qn tp * (Qn tp + Qn fp)) by (apply Qmult_lt_0_compat; lra).
    repeat split; lra.
Qed.

(* after the loop, position j holds g j if the loop visited j, and what it held before otherwise *)
Lemma fold_upd_nth {B} (g : nat -> B) (d : B) j : forall l out, Forall (fun i => (i < length out)%nat) l ->
  nth j (fold_left (fun o i => upd o i (g i)) l out) d = if existsb (Nat.eqb j) l then g j else nth j out d.
Proof.
  induction l as [|a l IH]; intros out H; [reflexivity|]. cbn [fold_left existsb].
  rewrite IH by (rewrite upd_length; exact (Forall_inv_tail H)).
  destruct (existsb (Nat.eqb j) l); [now rewrite orb_true_r|]. rewrite orb_false_r.
  destruct (Nat.eqb_spec j a) as [->|Hne]; [apply nth_upd_eq, (Forall_inv H)|apply nth_upd_neq; auto].
Qed.

Lemma fold_upd_length {B} (g : nat -> B) (l : list nat) : forall out : list B,
  length (fold_left (fun o i => upd o i (g i)) l out) = length out.
Proof. induction l; intros; simpl; auto. rewrite IHl. apply upd_length. Qed.

Theorem batch_loop_rowwise {A B} (f : A -> B) (d : A) (rows : list A) (garbage : list B) :
  length garbage = length rows -> batch_loop f d rows garbage = map f rows.
Proof.
  intros H. unfold batch_loop. apply (nth_ext _ _ (f d) (f d)).
  - now rewrite fold_upd_length, map_length.
  - intros j Hj. rewrite fold_upd_length in Hj.
    rewrite fold_upd_nth by (apply Forall_forall; intros i Hi; apply in_seq in Hi; lia).
    assert (existsb (Nat.eqb j) (seq 0 (length rows)) = true) as ->
      by (apply existsb_exists; exists j; split; [apply in_seq; lia|apply Nat.eqb_refl]).
    symmetry. apply map_nth.
Qed.

Lemma qsum_nth y : qsum y = sum_upto (length y) (nthq y).
Proof. rewrite <- qsum_map_seq. f_equal. symmetry. apply (map_nth_seq y 0). Qed.

Lemma qsum_map_nth (g : Q -> Q) y : qsum (map g y) = sum_upto (length y) (fun i => g (nthq y i)).
Proof.
  rewrite <- qsum_map_seq, <- (map_map (nthq y) g). f_equal. f_equal. symmetry. apply (map_nth_seq y 0).
Qed.

Lemma qsum_map_combine {A B} (da : A) (db : B) (g : A * B -> Q) y p : length p = length y ->
  qsum (map g (combine y p)) = sum_upto (length y) (fun i => g (nth i y da, nth i p db)).
Proof. intros H. rewrite (combine_nth_seq da db y p H), map_map, qsum_map_seq. reflexivity. Qed.

Lemma sq_pow x : sq x == x ^ 2.
Proof. unfold sq. simpl. reflexivity. Qed.

Lemma sq_nonneg x : 0 <= x ^ 2.
Proof. rewrite <- sq_pow. unfold sq. nra. Qed.

Lemma sum_upto_nonneg n f : (forall i, (i < n)%nat -> 0 <= f i) -> 0 <= sum_upto n f.
Proof.
  induction n as [|n IH]; intros H; simpl; [lra|].
  pose proof (IH ltac:(intros; apply H; lia)). pose proof (H n ltac:(lia)). lra.
Qed.

Lemma Qdiv_nonneg a b : 0 <= a -> 0 <= b -> 0 <= a / b.
Proof. intros. unfold Qdiv. apply Qmult_le_0_compat; auto. apply Qinv_le_0_compat; auto. Qed.

Lemma qmean_ybar y : qmean y = ybar y.
Proof. unfold qmean, ybar. now rewrite qsum_nth. Qed.

Lemma residual_model y p : length p = length y ->
  qsum (map sq (vsub y p)) == SSres y p.
Proof.
  intros H. unfold vsub, SSres. rewrite map_map, (qsum_map_combine 0 0 _ y p H).
  apply sum_upto_eqv. intros i _. simpl fst; simpl snd. apply sq_pow.
Qed.

(* RMSE: the value is sqrt of a radicand that equals the textbook mean squared error *)
Theorem rmse_spec (sqrt : Q -> Q) y p : length p = length y ->
  exists m, root_mean_square_error sqrt y p = sqrt m /\ m == mse_textbook y p /\ 0 <= m /\
            (sqrt m * sqrt m == m ->
             root_mean_square_error sqrt y p * root_mean_square_error sqrt y p == mse_textbook y p).
Proof.
  intros H. unfold root_mean_square_error.
  set (m := qmean (map sq (vsub y p))).
  assert (Hm : m == mse_textbook y p).
  { unfold m, qmean, mse_textbook. rewrite (residual_model y p H).
    unfold vsub. rewrite !map_length, combine_length, H, Nat.min_id. reflexivity. }
  exists m. repeat split; auto.
  - rewrite Hm. unfold mse_textbook. apply Qdiv_nonneg; [|apply Qn_nonneg].
    apply sum_upto_nonneg. intros; apply sq_nonneg.
  - intros Hs. rewrite Hs. exact Hm.
Qed.

Lemma total_model y : qsum (map (fun a => sq (a - qmean y)) y) == SStot y.
Proof.
  rewrite (qsum_map_nth (fun a => sq (a - qmean y))), qmean_ybar. unfold SStot.
  apply sum_upto_eqv. intros i _. apply sq_pow.
Qed.

Theorem r2_spec y p : length p = length y ->
  (~ SStot y == 0 -> coefficient_determination y p == 1 - SSres y p / SStot y) /\
  (SStot y == 0 -> coefficient_determination y p == 1 - SSres y p / tiny).
Proof.
  intros H. unfold coefficient_determination.
  pose proof (total_model y) as Ht. pose proof (residual_model y p H) as Hr.
  destruct (Qeq_bool (qsum (map (fun a => sq (a - qmean y)) y)) 0) eqn:E.
  - apply Qeq_bool_iff in E. rewrite Ht in E. split; intros H0.
    + contradiction.
    + rewrite Hr. reflexivity.
  - apply Qeq_bool_neq in E. rewrite Ht in E. split; intros H0.
    + rewrite Hr, Ht. reflexivity.
    + contradiction.
Qed.

Lemma sum_upto_zero_terms n f : (forall i, (i < n)%nat -> 0 <= f i) -> sum_upto n f == 0 ->
  forall i, (i < n)%nat -> f i == 0.
Proof.
  induction n as [|n IH]; intros Hf Hs i Hi; [lia|]. simpl in Hs.
  pose proof (sum_upto_nonneg n f ltac:(intros; apply Hf; lia)) as H1.
  pose proof (Hf n ltac:(lia)) as H2.
  destruct (Nat.eq_dec i n) as [->|Hne]; [lra|].
  apply IH; try lia; [intros; apply Hf; lia | lra].
Qed.

Lemma sum_upto_const n f c : (forall i, (i < n)%nat -> f i == c) -> sum_upto n f == Qn n * c.
Proof.
  induction n as [|n IH]; intros H; simpl.
  - unfold Qn; simpl. ring.
  - rewrite IH by (intros; apply H; lia). rewrite (H n) by lia.
    replace (S n) with (n + 1)%nat by lia. rewrite Qn_add. change (Qn 1) with 1. ring.
Qed.

Lemma pow2_zero x : x ^ 2 == 0 -> x == 0.
Proof. rewrite <- sq_pow. unfold sq. intros H. destruct (Qmult_integral _ _ H); auto. Qed.

(* the replaced denominator is used exactly for constant targets *)
Theorem SStot_zero_iff_constant y : y <> [] ->
  (SStot y == 0 <-> exists c, forall i, (i < length y)%nat -> nthq y i == c).
Proof.
  intros Hne. assert (Hn : 0 < Qn (length y)) by (apply Qn_pos; destruct y; [congruence|simpl; lia]).
  split.
  - intros H. exists (ybar y). intros i Hi.
    pose proof (sum_upto_zero_terms _ _ ltac:(intros; apply sq_nonneg) H i Hi) as Hz.
    apply pow2_zero in Hz. lra.
  - intros [c Hc]. unfold SStot.
    assert (Hb : ybar y == c).
    { unfold ybar. rewrite (sum_upto_const _ _ c Hc). field. lra. }
    rewrite (sum_upto_const _ _ 0); [ring|].
    intros i Hi. rewrite (Hc i Hi), Hb. simpl. ring.
Qed.

Theorem r2_perfect y : coefficient_determination y y == 1.
Proof.
  destruct (r2_spec y y eq_refl) as [H1 H2].
  assert (Hr : SSres y y == 0).
  { unfold SSres. rewrite (sum_upto_const _ _ 0); [ring|]. intros i _. simpl. ring. }
  destruct (Qeq_dec (SStot y) 0) as [E|E].
  - rewrite (H2 E), Hr. unfold Qdiv. ring.
  - rewrite (H1 E), Hr. unfold Qdiv. ring.
Qed.

Theorem crossentropy_spec (ln : Q -> Q) lo hi n c T O : rect n c T -> rect n c O ->
  categorical_crossentropy ln lo hi T O = ce_textbook ln (clip lo hi) (clip lo hi) n c T O.
Proof.
  intros [HT HTr] [HO HOr]. unfold categorical_crossentropy, ce_textbook, qmean.
  rewrite map_length, combine_length, HT, HO, Nat.min_id. f_equal.
  rewrite (qsum_map_combine [] [] _ T O) by congruence. rewrite HT.
  apply sum_upto_ext_lt. intros i Hi. cbv [fst snd]. unfold neg_log_prob_row.
  rewrite (qsum_map_combine 0 0 _ (nth i T []) (nth i O [])) by (rewrite HTr, HOr; auto).
  rewrite (HTr i Hi). reflexivity.
Qed.

(* np.clip with lo <= hi, by the position of x *)
Lemma np_clip_cases lo hi x : lo <= hi ->
  (x <= lo /\ clip lo hi x = lo) \/ (lo < x /\ x <= hi /\ clip lo hi x = x) \/ (hi < x /\ clip lo hi x = hi).
Proof.
  intros H. unfold clip, qminimum, qmaximum. destruct (Qle_bool x lo) eqn:E1.
  - apply Qle_bool_iff in E1. left. split; [exact E1|].
    destruct (Qle_bool lo hi) eqn:E2; [reflexivity|]. apply Qle_bool_false in E2. lra.
  - apply Qle_bool_false in E1. right. destruct (Qle_bool x hi) eqn:E2.
    + apply Qle_bool_iff in E2. auto.
    + apply Qle_bool_false in E2. auto.
Qed.

Lemma np_clip_range lo hi x : lo <= hi -> lo <= clip lo hi x /\ clip lo hi x <= hi.
Proof. intros H. destruct (np_clip_cases lo hi x H) as [(?&->)|[(?&?&->)|(?&->)]]; lra. Qed.

Lemma clip_dev lo hi eps t : 0 <= lo -> lo <= hi -> lo <= eps -> 1 - hi <= eps -> 0 <= t -> t <= 1 ->
  Qabs (clip lo hi t - t) <= eps.
Proof.
  intros. apply Qabs_Qle_condition. destruct (np_clip_cases lo hi t) as [(?&->)|[(?&?&->)|(?&->)]]; [assumption|..]; lra.
Qed.

Lemma sum_upto_abs_diff n f g B : (forall i, (i < n)%nat -> Qabs (f i - g i) <= B) ->
  Qabs (sum_upto n f - sum_upto n g) <= Qn n * B.
Proof.
  induction n as [|n IH]; intros H; cbn [sum_upto].
  - setoid_replace (0 - 0) with 0 by ring. change (Qn 0) with 0. change (Qabs 0) with 0. lra.
  - pose proof (IH ltac:(intros; apply H; lia)) as H1. pose proof (H n ltac:(lia)) as H2.
    setoid_replace (sum_upto n f + f n - (sum_upto n g + g n))
      with ((sum_upto n f - sum_upto n g) + (f n - g n)) by ring.
    eapply Qle_trans; [apply Qabs_triangle|].
    replace (S n) with (n + 1)%nat by lia. rewrite Qn_add. change (Qn 1) with 1. lra.
Qed.

Lemma Qabs_div_le x q B : 0 < q -> Qabs x <= q * B -> Qabs (x / q) <= B.
Proof.
  intros Hq H. unfold Qdiv. rewrite Qabs_Qmult.
  rewrite (Qabs_pos (/ q)) by (apply Qinv_le_0_compat; lra).
  apply Qle_shift_div_r; auto. lra.
Qed.

(* deviation of the code's definition (target clipped too) from the definition that clips only
   the prediction: at most c * eps * L for targets in [0,1], where L bounds -ln on [lo,hi] *)
Theorem crossentropy_target_clip_deviation (ln : Q -> Q) lo hi eps L n c T O :
  0 <= lo -> lo <= hi -> lo <= eps -> 1 - hi <= eps -> (0 < n)%nat ->
  (forall x, lo <= x -> x <= hi -> 0 <= - ln x /\ - ln x <= L) ->
  (forall i j, (i < n)%nat -> (j < c)%nat -> 0 <= nth2 T i j /\ nth2 T i j <= 1) ->
  Qabs (ce_textbook ln (clip lo hi) (clip lo hi) n c T O
        - ce_textbook ln (fun t => t) (clip lo hi) n c T O) <= Qn c * (eps * L).
Proof.
  intros Hlo Hlh He1 He2 Hn Hln HT. unfold ce_textbook.
  set (S1 := sum_upto n _). set (S2 := sum_upto n _).
  setoid_replace (S1 / Qn n - S2 / Qn n) with ((S1 - S2) / Qn n)
    by (field; pose proof (Qn_pos n Hn); lra).
  apply Qabs_div_le; [apply Qn_pos; exact Hn|].
  apply sum_upto_abs_diff. intros i Hi.
  apply sum_upto_abs_diff. intros j Hj.
  destruct (HT i j Hi Hj) as [T0 T1].
  destruct (np_clip_range lo hi (nth2 O i j) Hlh) as [C0 C1].
  destruct (Hln _ C0 C1) as [L0 L1].
  pose proof (clip_dev lo hi eps (nth2 T i j) Hlo Hlh He1 He2 T0 T1) as Hd.
  set (l := ln (clip lo hi (nth2 O i j))) in *. set (t := nth2 T i j) in *.
  setoid_replace (- clip lo hi t * l - - t * l) with ((clip lo hi t - t) * (- l)) by ring.
  rewrite Qabs_Qmult, (Qabs_pos (- l)) by exact L0.
  apply Qmult_le_compat_nonneg; split; auto. apply Qabs_nonneg.
Qed.

