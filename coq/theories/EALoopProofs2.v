(* EALoopProofs2.v — budget / stopping rules (C03), greedy slots (C02), history (C17), duality (C05). *)
From TF Require Import EALoop EALoopProofs.
Open Scope Q_scope.

Lemma last_cons {A} (l : list A) : forall a d, last (a :: l) d = last l a.
Proof.
  induction l as [|b l IH]; intros a d; [reflexivity|].
  change (last (a :: b :: l) d) with (last (b :: l) d). now rewrite !IH.
Qed.

Section Proofs2.
Variables G P : Type.
Variable g2p : G -> P.
Variable nf : P -> Q.
Notation indiv := (indiv G P).
Notation state := (state G P).
Variable k : kind.
Variable elitism keep_history : bool.
Variable aim : option Q.
Variable no_increase_num : option nat.
Variable var : state -> list G.

Notation step := (step G P g2p nf k elitism keep_history).
Notation terminate := (terminate G P aim no_increase_num).
Notation loop := (loop G P g2p nf k elitism keep_history aim no_increase_num var).
Notation fit := (fit G P g2p nf k elitism keep_history aim no_increase_num var).
Notation trajectory := (trajectory G P g2p nf k elitism keep_history aim no_increase_num var).

Lemma loop_last m : forall st d, loop m st = last (trajectory m st) d.
Proof.
  induction m as [|m IH]; intros st d; cbn [EALoop.loop EALoop.trajectory]; [reflexivity|].
  destruct (terminate st); [reflexivity|]. rewrite last_cons. apply IH.
Qed.

(* C03: the termination test is met "never earlier" (no state before the last satisfies it) and acted on "immediately
   after" (the last one satisfies it, or the budget is used up) *)
Theorem trajectory_spec : forall m st,
  let tr := trajectory m st in
  loop m st = last tr st /\
  (forall i, (S i < length tr)%nat -> terminate (nth i tr st) = false) /\
  (terminate (last tr st) = true \/ length tr = S m).
Proof.
  intros m st. cbv zeta. split; [apply loop_last|]. revert st.
  induction m as [|m IH]; intros st; cbn [EALoop.trajectory].
  - cbn. split; [lia|auto].
  - destruct (terminate st) eqn:Et; [cbn; split; [lia|auto]|].
    set (st1 := callback G P (step false st (var st))). destruct (IH st1) as (H4 & H5).
    rewrite last_cons, <- (loop_last m st1 st), (loop_last m st1 st1).
    set (tr := trajectory m st1) in *. cbn [length]. split.
    + intros [|i] Hi; [exact Et|]. cbn [nth]. rewrite (nth_indep tr st st1) by lia. apply H4. lia.
    + destruct H5 as [H5|H5]; [left; auto|right; lia].
Qed.

Lemma loop_counts m : forall st, exists j, (j <= m)%nat /\
  gens (loop m st) = (gens st + j)%nat /\ callbacks (loop m st) = (callbacks st + j)%nat.
Proof.
  induction m as [|m IH]; intros st; cbn [EALoop.loop]; [exists 0%nat; lia|].
  destruct (terminate st); [exists 0%nat; lia|].
  destruct (IH (callback G P (step false st (var st)))) as (j & Hj & Hg & Hc).
  destruct (step_fields G P g2p nf k elitism keep_history false st (var st)) as (Eg & Ec & _).
  exists (S j). cbn [callback gens callbacks] in Hg, Hc. lia.
Qed.

Definition snapshot_ok (s : snapshot G P) : Prop :=
  s_max s = best_of G P (s_pop s) /\
  forall m, s_max s = Some m -> In m (s_pop s) /\ Forall (fun x => ifit x <= ifit m) (s_pop s).

Lemma step_hist_ok first st gs : Forall snapshot_ok (hist st) -> Forall snapshot_ok (hist (step first st gs)).
Proof.
  intros H. rewrite step_finish. unfold model_finish. cbn [hist].
  destruct keep_history; auto. apply Forall_app. split; auto. constructor; [|constructor].
  split; [reflexivity|]. cbn. intros m Hm. apply (best_of_spec G P _ _ Hm).
Qed.

Variable n : nat.
Hypothesis n_pos : (0 < n)%nat.
Hypothesis var_len : forall st, length (var st) = n.
Notation Inv := (Inv G P g2p nf elitism keep_history n).

Theorem budget iters gs0 : (1 <= iters)%nat -> length gs0 = n ->
  let st := fit iters gs0 in
  (1 <= gens st <= iters)%nat /\ calls st = (n * gens st)%nat /\
  callbacks st = (gens st - 1)%nat /\
  (n * iters - calls st = n * (iters - gens st))%nat.
Proof.
  intros Hit Hgs. cbv zeta.
  rewrite (Inv_calls (fit_inv G P g2p nf k elitism keep_history aim no_increase_num var n n_pos var_len iters gs0 Hgs)).
  unfold EALoop.fit.
  destruct (step_fields G P g2p nf k elitism keep_history true (init_state G P) gs0) as (Eg & Ec & _).
  destruct (loop_counts (iters - 1) (step true (init_state G P) gs0)) as (j & Hj & Hg & Hcb).
  cbn [init_state gens callbacks] in Eg, Ec.
  split; [lia|]. split; [auto|]. split; [lia|]. symmetry. apply Nat.mul_sub_distr_l.
Qed.

Theorem slot_monotone st gs i d : k = Greedy -> Inv st -> length gs = n -> (i < n)%nat ->
  ifit (nth i (pop st) d) <= ifit (nth i (pop (step false st gs)) d).
Proof.
  intros Hk Hi Hgs Hlt. pose proof (Inv_len Hi) as Hlen.
  destruct (Inv_best (step_inv G P g2p nf k elitism keep_history n n_pos false st gs Hgs (or_intror (conj eq_refl Hi))))
    as (b' & Hb' & _ & Hmax).
  rewrite step_finish, Hk in *. unfold model_finish in *. cbn [pop best evaluated] in *.
  set (pop1 := greedy G P (map (eval G P g2p nf) gs) (pop st)) in *. rewrite Hb'.
  assert (Hs : ifit (nth i (pop st) d) <= ifit (nth i pop1 d)).
  { unfold pop1. destruct (greedy_slot G P (map (eval G P g2p nf) gs) (pop st) i d) as [->|(-> & H)]; [lia|apply Qle_refl|exact H]. }
  destruct elitism; [|exact Hs].
  (* elitism overwrote the last slot with the record, which dominates everything evaluated *)
  rewrite set_last_upd. destruct (Nat.eq_dec (length pop1 - 1) i) as [<-|Hne].
  - rewrite nth_upd_eq by (unfold pop1; rewrite greedy_length; lia).
    rewrite Forall_forall in Hmax. apply Hmax, in_or_app. left. apply (Inv_pop Hi), nth_In. lia.
  - rewrite nth_upd_neq by exact Hne. exact Hs.
Qed.

Theorem history_complete iters gs0 : (1 <= iters)%nat -> length gs0 = n ->
  let st := fit iters gs0 in
  (keep_history = true -> length (hist st) = gens st) /\ (keep_history = false -> hist st = []).
Proof.
  intros Hit Hgs. cbv zeta.
  pose proof (fit_inv G P g2p nf k elitism keep_history aim no_increase_num var n n_pos var_len iters gs0 Hgs) as Hi.
  split; [exact (Inv_hist Hi)|exact (Inv_nohist Hi)].
Qed.

End Proofs2.

(* the sign moves from the factor to the value: (-1 * a) # b = (1 * -a) # b, numerator by numerator *)
Lemma sign_dual q : sign_of true * q = sign_of false * - q.
Proof. destruct q as [a b]. unfold sign_of, Qmult, Qopp. cbn [Qnum Qden]. f_equal. lia. Qed.

Lemma norm_fit_dual {P} (f : P -> Q) p : norm_fit true f p = norm_fit false (fun x => - f x) p.
Proof. apply sign_dual. Qed.

Lemma aim_dual v err : aim_of true (Some v) err = aim_of false (Some (- v)) err.
Proof. unfold aim_of. now rewrite sign_dual. Qed.

Section Dual.
Variables G P : Type.
Variable g2p : G -> P.
Variables nf1 nf2 : P -> Q.
Hypothesis nf_ext : forall p, nf1 p = nf2 p.
Variable k : kind.
Variable elitism keep_history : bool.
Variable aim : option Q.
Variable no_increase_num : option nat.
Variable var : state G P -> list G.

Lemma eval_ext g : eval G P g2p nf1 g = eval G P g2p nf2 g.
Proof. unfold eval. now rewrite nf_ext. Qed.

Lemma step_ext first st gs :
  step G P g2p nf1 k elitism keep_history first st gs = step G P g2p nf2 k elitism keep_history first st gs.
Proof. unfold step. rewrite (map_ext _ _ eval_ext). reflexivity. Qed.

Theorem fit_ext iters gs0 :
  fit G P g2p nf1 k elitism keep_history aim no_increase_num var iters gs0 =
  fit G P g2p nf2 k elitism keep_history aim no_increase_num var iters gs0.
Proof.
  unfold fit. rewrite step_ext. generalize (iters - 1)%nat, (step G P g2p nf2 k elitism keep_history true (init_state G P) gs0).
  induction n as [|m IH]; intros st; cbn [loop]; auto.
  destruct (terminate G P aim no_increase_num st); auto. rewrite step_ext. apply IH.
Qed.
End Dual.

(* C05: minimising f with target v is the same run as maximising -f with target -v *)
Theorem dual G P (g2p : G -> P) (f : P -> Q) k elitism keep_history v err nin var iters gs0 :
  fit G P g2p (norm_fit true f) k elitism keep_history (aim_of true (Some v) err) nin var iters gs0 =
  fit G P g2p (norm_fit false (fun x => - f x)) k elitism keep_history (aim_of false (Some (- v)) err) nin var iters gs0.
Proof. rewrite aim_dual. apply fit_ext. intros p. apply norm_fit_dual. Qed.
