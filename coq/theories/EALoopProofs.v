(* EALoopProofs.v — the invariant of the generation loop, and what C01 / C02 read off it. *)
From TF Require Import EALoop.
Open Scope Q_scope.

Section Proofs.
Variables G P : Type.
Variable g2p : G -> P.
Variable nf : P -> Q.
Notation indiv := (indiv G P).
Notation state := (state G P).
Notation eval := (eval G P g2p nf).

Lemma first_max_spec (l : list indiv) : forall b,
  let m := first_max G P b l in
  (m = b \/ In m l) /\ ifit b <= ifit m /\ Forall (fun x => ifit x <= ifit m) l.
Proof.
  induction l as [|x t IH]; intros b; cbn [first_max]; cbv zeta.
  - split; [left; reflexivity|]. split; [lra|constructor].
  - destruct (Qltb (ifit b) (ifit x)) eqn:E.
    + apply Qltb_lt in E. destruct (IH x) as (H1 & H2 & H3). cbv zeta in *.
      split; [right; destruct H1 as [-> |H1]; [left|right]; auto|]. split; [lra|]. constructor; auto.
    + apply Qltb_ge in E. destruct (IH b) as (H1 & H2 & H3). cbv zeta in *.
      split; [destruct H1 as [H1|H1]; [left|right; right]; auto|]. split; [auto|]. constructor; [lra|auto].
Qed.

Lemma best_of_spec (l : list indiv) m : best_of G P l = Some m ->
  In m l /\ Forall (fun x => ifit x <= ifit m) l.
Proof.
  destruct l as [|x t]; [discriminate|]. cbn [best_of]. intros H; inversion H; subst; clear H.
  destruct (first_max_spec t x) as (H1 & H2 & H3). cbv zeta in *. split.
  - destruct H1 as [-> |H1]; [left|right]; auto.
  - constructor; auto.
Qed.

Lemma best_of_none (l : list indiv) : best_of G P l = None <-> l = [].
Proof. destruct l; cbn; split; intros; congruence. Qed.

Lemma update_best_spec b c p b' c' : update_best G P b c p = (b', c') -> p <> [] ->
  exists m, b' = Some m /\ (In m p \/ b = Some m) /\ Forall (fun x => ifit x <= ifit m) p /\
    (forall b0, b = Some b0 -> ifit b0 <= ifit m) /\
    ((c' = 0%nat /\ (b = None \/ exists b0, b = Some b0 /\ ifit b0 < ifit m)) \/
     (c' = S c /\ b = Some m)).
Proof.
  intros H Hne. unfold update_best in H. destruct (best_of G P p) as [cand|] eqn:Eb.
  2:{ apply best_of_none in Eb. contradiction. }
  destruct (best_of_spec _ _ Eb) as (Hin & Hall).
  destruct b as [b0|].
  - destruct (Qltb (ifit b0) (ifit cand)) eqn:E; inversion H; subst; clear H.
    + apply Qltb_lt in E. exists cand. split; [auto|]. split; [auto|]. split; [auto|]. split.
      * intros b1 Hb1. inversion Hb1; subst. lra.
      * left. split; auto. right. eauto.
    + apply Qltb_ge in E. exists b0. split; [auto|]. split; [auto|]. split.
      * eapply Forall_impl; [|exact Hall]. intros a Ha. cbn in Ha. lra.
      * split; [intros b1 Hb1; inversion Hb1; subst; lra|]. right. auto.
  - inversion H; subst; clear H. exists cand. split; [auto|]. split; [auto|]. split; [auto|].
    split; [intros b1 Hb1; discriminate|]. left. auto.
Qed.

Lemma greedy_length : forall (ts ps : list indiv), length (greedy G P ts ps) = length ps.
Proof.
  induction ts as [|t ts IH]; intros ps; cbn [greedy]; auto. destruct ps; auto. simpl. f_equal. apply IH.
Qed.

Lemma greedy_in : forall (ts ps : list indiv) x, In x (greedy G P ts ps) -> In x ts \/ In x ps.
Proof.
  induction ts as [|t ts IH]; intros ps x H; cbn [greedy] in H; auto. destruct ps as [|p ps]; auto.
  destruct H as [H|H].
  - destruct (Qle_bool (ifit p) (ifit t)); subst; [left; left|right; left]; auto.
  - destruct (IH ps x H); [left; right|right; right]; auto.
Qed.

Lemma greedy_dominates : forall (ts ps : list indiv), (length ts <= length ps)%nat ->
  forall t, In t ts -> exists x, In x (greedy G P ts ps) /\ ifit t <= ifit x.
Proof.
  induction ts as [|t0 ts IH]; intros ps Hl t Hin; [contradiction|].
  destruct ps as [|p ps]; [simpl in Hl; lia|]. cbn [greedy]. destruct Hin as [-> |Hin].
  - destruct (Qle_bool (ifit p) (ifit t)) eqn:E.
    + exists t. split; [left; auto|lra].
    + apply Qle_bool_false in E. exists p. split; [left; auto|lra].
  - destruct (IH ps ltac:(simpl in Hl; lia) t Hin) as (x & Hx & Hle). exists x. split; [right; auto|auto].
Qed.

Lemma greedy_slot : forall (ts ps : list indiv) i d, (i < length ps)%nat ->
  let r := greedy G P ts ps in
  nth i r d = nth i ps d \/ (nth i r d = nth i ts d /\ ifit (nth i ps d) <= ifit (nth i ts d)).
Proof.
  induction ts as [|t ts IH]; intros ps i d Hi; cbn [greedy]; cbv zeta; [left; reflexivity|].
  destruct ps as [|p ps]; [simpl in Hi; lia|]. destruct i as [|i]; cbn [nth].
  - destruct (Qle_bool (ifit p) (ifit t)) eqn:E; [right; split; [reflexivity|now apply Qle_bool_iff]|left; reflexivity].
  - apply IH. simpl in Hi. lia.
Qed.

(* a[-1] = b *)
Lemma set_last_upd (p : list indiv) b : set_last G P p b = upd p (length p - 1) b.
Proof.
  destruct p as [|a t]; [reflexivity|]. replace (length (a :: t) - 1)%nat with (length t) by (simpl; lia).
  cbn [set_last]. revert a; induction t as [|c t IH]; intro a; [reflexivity|].
  change (removelast (a :: c :: t)) with (a :: removelast (c :: t)). cbn [app length upd]. f_equal. apply IH.
Qed.

Lemma set_last_length (p : list indiv) b : length (set_last G P p b) = length p.
Proof. rewrite set_last_upd. apply upd_length. Qed.

Lemma in_upd {A} (l : list A) : forall i v x, In x (upd l i v) -> In x l \/ x = v.
Proof.
  induction l as [|a l IH]; intros [|i] v x H; cbn in H |- *; auto; destruct H as [H|H]; auto.
  destruct (IH _ _ _ H); auto.
Qed.

Lemma set_last_in (p : list indiv) b x : In x (set_last G P p b) -> In x p \/ x = b.
Proof. rewrite set_last_upd. apply in_upd. Qed.

Lemma set_last_last (p : list indiv) b d : p <> [] -> last (set_last G P p b) d = b /\ In b (set_last G P p b).
Proof.
  intros Hn. unfold set_last. destruct p as [|y t]; [congruence|]. split.
  - apply last_last.
  - apply in_or_app. right. left. reflexivity.
Qed.

(* a generation, given the population p it merged from the evaluated batch: record, elitism write, history entry *)
Definition model_finish (elitism keep_history : bool) (st : state) (p batch : list indiv) : state :=
  let u := update_best G P (best st) (counter st) p in
  {| pop := if elitism then match fst u with Some b => set_last G P p b | None => p end else p;
     best := fst u; counter := snd u; gens := S (gens st);
     calls := (calls st + length batch)%nat; evaluated := evaluated st ++ batch;
     hist := if keep_history then hist st ++ [{| s_pop := p; s_max := best_of G P p |}] else hist st;
     callbacks := callbacks st |}.

Lemma step_finish k el kh first st gs :
  step G P g2p nf k el kh first st gs
  = model_finish el kh st (match k with Generational => map eval gs
                           | Greedy => if first then map eval gs else greedy G P (map eval gs) (pop st) end)
                 (map eval gs).
Proof. unfold step, model_finish. now destruct (update_best _ _ _ _ _). Qed.

Lemma finish_pop_nonempty el kh st p batch : p <> [] -> pop (model_finish el kh st p batch) <> [].
Proof.
  intro Hp. unfold model_finish. cbn [pop]. destruct el; [|exact Hp]. destruct (fst _) as [b|]; [|exact Hp].
  intro E. apply (f_equal (@length _)) in E. rewrite set_last_length in E. destruct p; [congruence|discriminate].
Qed.

Lemma step_fields k el kh first st gs :
  let st' := step G P g2p nf k el kh first st gs in
  gens st' = S (gens st) /\ callbacks st' = callbacks st /\ evaluated st' = evaluated st ++ map eval gs.
Proof. rewrite step_finish. repeat split. Qed.

Variable k : kind.
Variable elitism keep_history : bool.
Variable aim : option Q.
Variable no_increase_num : option nat.
Variable var : state -> list G.
Variable n : nat.                              (* pop_size *)
Hypothesis n_pos : (0 < n)%nat.
Hypothesis var_len : forall st, length (var st) = n.

Notation step := (step G P g2p nf k elitism keep_history).
Notation terminate := (terminate G P aim no_increase_num).
Notation loop := (loop G P g2p nf k elitism keep_history aim no_increase_num var).
Notation fit := (fit G P g2p nf k elitism keep_history aim no_increase_num var).
Notation trajectory := (trajectory G P g2p nf k elitism keep_history aim no_increase_num var).

Definition Inv (st : state) : Prop :=
  length (pop st) = n /\
  (forall p, In p (pop st) -> In p (evaluated st)) /\
  (exists b, best st = Some b /\ In b (evaluated st) /\ Forall (fun e => ifit e <= ifit b) (evaluated st)) /\
  (forall e, In e (evaluated st) -> exists g, e = eval g) /\
  calls st = (n * gens st)%nat /\
  (keep_history = true -> length (hist st) = gens st) /\
  (keep_history = false -> hist st = []) /\
  (elitism = true -> exists b, best st = Some b /\ last (pop st) b = b /\ In b (pop st)).

Lemma Inv_len st : Inv st -> length (pop st) = n.
Proof. intro H. apply H. Qed.
Lemma Inv_pop st : Inv st -> forall p, In p (pop st) -> In p (evaluated st).
Proof. intro H. apply H. Qed.
Lemma Inv_best st : Inv st ->
  exists b, best st = Some b /\ In b (evaluated st) /\ Forall (fun e => ifit e <= ifit b) (evaluated st).
Proof. intro H. apply H. Qed.
Lemma Inv_eval st : Inv st -> forall e, In e (evaluated st) -> exists g, e = eval g.
Proof. intro H. apply H. Qed.
Lemma Inv_calls st : Inv st -> calls st = (n * gens st)%nat.
Proof. intro H. apply H. Qed.
Lemma Inv_hist st : Inv st -> keep_history = true -> length (hist st) = gens st.
Proof. intro H. apply H. Qed.
Lemma Inv_nohist st : Inv st -> keep_history = false -> hist st = [].
Proof. intro H. apply H. Qed.
Lemma Inv_elite st : Inv st -> elitism = true -> exists b, best st = Some b /\ last (pop st) b = b /\ In b (pop st).
Proof. intro H. apply H. Qed.

(* the invariant after a generation, from what its merged population p owes to the batch *)
Lemma finish_inv st p batch :
  st = init_state G P \/ Inv st ->
  length batch = n -> (forall e, In e batch -> exists g, e = eval g) ->
  length p = n -> (forall x, In x p -> In x (evaluated st ++ batch)) ->
  (forall t, In t batch -> exists x, In x p /\ ifit t <= ifit x) ->
  Inv (model_finish elitism keep_history st p batch).
Proof.
  intros Hst Hbl Hbe Hpl Hpin Hdom.
  assert (Hpne : p <> []) by (intro E; rewrite E in Hpl; simpl in Hpl; lia).
  (* what the old state contributes, whether it is the initial one or a later one *)
  assert (Hold : (forall b, best st = Some b -> In b (evaluated st) /\ Forall (fun e => ifit e <= ifit b) (evaluated st)) /\
                 (best st = None -> evaluated st = []) /\ (forall e, In e (evaluated st) -> exists g, e = eval g) /\
                 calls st = (n * gens st)%nat /\ (keep_history = true -> length (hist st) = gens st) /\
                 (keep_history = false -> hist st = [])).
  { destruct Hst as [->|Hi].
    - cbn. repeat split; try discriminate; auto. intros e [].
    - destruct (Inv_best st Hi) as (b & Hb & Hin & Hall). rewrite Hb. split; [intros b' E; injection E as <-; auto|].
      split; [discriminate|]. split; [exact (Inv_eval st Hi)|]. split; [exact (Inv_calls st Hi)|]. split; [exact (Inv_hist st Hi)|exact (Inv_nohist st Hi)]. }
  destruct Hold as (Hbest & Hnone & Hev & Hc & Hh1 & Hh2).
  unfold model_finish. destruct (update_best G P (best st) (counter st) p) as [b1 c1] eqn:Eu.
  destruct (update_best_spec _ _ _ _ _ Eu Hpne) as (m & -> & Hm & Hmall & Hmb & _).
  assert (Hm_in : In m (evaluated st ++ batch)).
  { destruct Hm as [Hm|Hm]; [now apply Hpin|]. apply in_or_app. left. now apply Hbest. }
  (* the new record dominates the old one, hence everything evaluated before; and every trial of the batch through p *)
  assert (Hm_max : Forall (fun e => ifit e <= ifit m) (evaluated st ++ batch)).
  { apply Forall_app. split.
    - destruct (best st) as [b|] eqn:Eb; [|rewrite (Hnone eq_refl); constructor].
      destruct (Hbest b eq_refl) as (_ & Hall). specialize (Hmb b eq_refl).
      eapply Forall_impl; [|exact Hall]. intros a Ha. cbn in Ha. lra.
    - apply Forall_forall. intros t Ht. destruct (Hdom t Ht) as (x & Hx & Hle).
      rewrite Forall_forall in Hmall. specialize (Hmall x Hx). cbn in Hmall. lra. }
  unfold Inv. cbn [pop best counter gens calls evaluated hist callbacks fst snd].
  split. { destruct elitism; [rewrite set_last_length|]; exact Hpl. }
  split. { intros x Hx. destruct elitism; [|now apply Hpin]. apply set_last_in in Hx. destruct Hx as [Hx| ->]; [now apply Hpin|exact Hm_in]. }
  split; [exists m; auto|].
  split. { intros e He. apply in_app_or in He. destruct He; auto. }
  split; [rewrite Hbl, Hc; lia|].
  split. { intros Hk. rewrite Hk, app_length, (Hh1 Hk). cbn [length]. lia. }
  split. { intros Hk. rewrite Hk. exact (Hh2 Hk). }
  intros He. exists m. split; [reflexivity|]. rewrite He. now apply set_last_last.
Qed.

Lemma step_inv first st gs : length gs = n -> (first = true /\ st = init_state G P \/ first = false /\ Inv st) ->
  Inv (step first st gs).
Proof.
  intros Hgs Hst. rewrite step_finish.
  assert (Hi : k = Greedy -> first = false -> Inv st) by (intros _ ->; destruct Hst as [(Hc & _)|(_ & Hi)]; [discriminate|exact Hi]).
  apply finish_inv.
  - tauto.
  - now rewrite map_length.
  - intros e He. apply in_map_iff in He. destruct He as (g & <- & _). eauto.
  - destruct k, first; rewrite ?greedy_length, ?map_length; auto using Inv_len.
  - intros x Hx. apply in_or_app. destruct k, first; auto. apply greedy_in in Hx. destruct Hx; auto using Inv_pop.
  - (* a rejected trial is dominated by the parent that kept its slot *)
    intros t Ht. destruct k, first; try (exists t; split; [exact Ht|apply Qle_refl]).
    apply greedy_dominates; [|exact Ht]. rewrite map_length, Inv_len; auto. lia.
Qed.

Lemma loop_ind (I : state -> Prop) :
  (forall st, I st -> I (callback G P (step false st (var st)))) -> forall m st, I st -> I (loop m st).
Proof. intros Hs. induction m as [|m IH]; intros st Hi; cbn [EALoop.loop]; auto. destruct (terminate st); auto. Qed.

Theorem fit_inv iters gs0 : length gs0 = n -> Inv (fit iters gs0).
Proof.
  intros H. unfold EALoop.fit. apply loop_ind; [|apply step_inv; auto].
  intros st Hi. exact (step_inv false st (var st) (var_len st) (or_intror (conj eq_refl Hi))).
Qed.

Theorem best_is_max iters gs0 : length gs0 = n ->
  let st := fit iters gs0 in
  exists b, best st = Some b /\ In b (evaluated st) /\ Forall (fun e => ifit e <= ifit b) (evaluated st) /\
    iph b = g2p (ig b) /\ ifit b = nf (iph b).
Proof.
  intros H. cbv zeta. pose proof (fit_inv iters gs0 H) as Hi. destruct (Inv_best _ Hi) as (b & Hb & Hin & Hall).
  exists b. repeat split; auto; destruct (Inv_eval _ Hi b Hin) as (g & ->); reflexivity.
Qed.

Theorem best_monotone st gs b : Inv st -> length gs = n -> best st = Some b ->
  exists b', best (step false st gs) = Some b' /\ ifit b <= ifit b'.
Proof.
  intros Hi Hgs Hb.
  destruct (Inv_best _ (step_inv false st gs Hgs (or_intror (conj eq_refl Hi)))) as (b' & Hb' & _ & Hall).
  exists b'. split; auto. rewrite Forall_forall in Hall. apply Hall.
  destruct (step_fields k elitism keep_history false st gs) as (_ & _ & ->). apply in_or_app. left.
  destruct (Inv_best _ Hi) as (b0 & Hb0 & Hin & _). congruence.
Qed.

End Proofs.

Arguments Inv_len {G P g2p nf elitism keep_history n st}.
Arguments Inv_pop {G P g2p nf elitism keep_history n st}.
Arguments Inv_best {G P g2p nf elitism keep_history n st}.
Arguments Inv_eval {G P g2p nf elitism keep_history n st}.
Arguments Inv_calls {G P g2p nf elitism keep_history n st}.
Arguments Inv_hist {G P g2p nf elitism keep_history n st}.
Arguments Inv_nohist {G P g2p nf elitism keep_history n st}.
Arguments Inv_elite {G P g2p nf elitism keep_history n st}.
