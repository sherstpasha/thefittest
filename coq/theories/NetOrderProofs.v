(* NetOrderProofs.v — C13/C12: Net._get_order terminates on Layered (hence Valid) nets and
   schedules every non-input node exactly once, sources before use; Valid = Layered + three
   clauses, and the boolean forms the correspondence evaluates decide / imply them.            *)
From TF Require Import Base Net NetAlgebra NetOrder C12Check NetProofs NetProofs2.
From Coq Require Import Permutation Sorted.
Local Open Scope nat_scope.

Lemma usort_In l y : In y (usort l) <-> In y l.
Proof. apply (sort_dedup_by_In Nat.eqb Nat.ltb). intros x z. apply Nat.eqb_eq. Qed.
Lemma usort_sorted l : StronglySorted lt (usort l).
Proof.
  apply (sort_dedup_by_sorted lt Nat.lt_trans Nat.eqb Nat.ltb); intros x y.
  - apply Nat.eqb_eq.
  - apply Nat.ltb_lt.
  - rewrite Nat.eqb_neq, Nat.ltb_ge. lia.
Qed.

Lemma natlist_eqb_eq a b : natlist_eqb a b = true <-> a = b.
Proof.
  revert b. induction a as [|x a IH]; intros [|y b]; simpl; try (split; congruence).
  rewrite andb_true_iff, Nat.eqb_eq, IH. split; [intros [-> ->]; auto|intro H; inversion H; auto].
Qed.
Lemma Permutation_filter {A} (f : A -> bool) l l' :
  Permutation l l' -> Permutation (filter f l) (filter f l').
Proof.
  induction 1; simpl; auto.
  - destruct (f x); auto.
  - destruct (f x), (f y); auto. apply perm_swap.
  - eapply perm_trans; eauto.
Qed.

Lemma sort_src_perm l : Permutation (fold_right ins_src [] l) l.
Proof. apply (sort_by_perm (fun x y : nat * nat => fst x <=? fst y)). Qed.
Lemma sort_src_sorted l : StronglySorted le (map fst (fold_right ins_src [] l)).
Proof.
  apply sorted_map.
  apply (sort_by_sorted (fun x y : nat * nat => fst x <= fst y)) with (leb := fun x y => fst x <=? fst y).
  - intros x y z. apply Nat.le_trans.
  - intros x y. apply Nat.leb_le.
  - intros x y H. apply Nat.leb_gt in H. lia.
Qed.

Definition srcs_of (con : list (nat * nat)) (t : nat) : list nat :=
  map fst (filter (fun c => snd c =? t) con).
Lemma entries_from_srcs s con t : map fst (entries_from s con t) = srcs_of con t.
Proof.
  revert s. unfold srcs_of. induction con as [|c r IH]; intro s; simpl; auto.
  destruct (snd c =? t); simpl; rewrite IH; auto.
Qed.
Lemma srcs_of_In con t a : In a (srcs_of con t) <-> In (a, t) con.
Proof.
  unfold srcs_of. rewrite In_fst. split.
  - intros [b H]. apply filter_In in H. destruct H as [H E]. apply Nat.eqb_eq in E. simpl in E. subst. auto.
  - intro H. exists t. apply filter_In. split; auto. apply Nat.eqb_refl.
Qed.

Lemma srcs_of_perm con con' t :
  Permutation con con' -> Permutation (srcs_of con t) (srcs_of con' t).
Proof. intro P. apply Permutation_map, Permutation_filter, P. Qed.

Definition key_of (con : list (nat * nat)) (t : nat) : list nat := map fst (entries con t).
Lemma key_of_srcs_perm con t : Permutation (key_of con t) (srcs_of con t).
Proof.
  unfold key_of, entries. rewrite sort_src_perm, entries_from_srcs. apply Permutation_refl.
Qed.
Lemma key_of_In con t a : In a (key_of con t) <-> In (a, t) con.
Proof.
  rewrite <- srcs_of_In. split; apply Permutation_in; [|symmetry]; apply key_of_srcs_perm.
Qed.
(* the key is the sorted source tuple: two targets with the same sources have the same key *)
Lemma key_of_eq con con' u v :
  Permutation (srcs_of con u) (srcs_of con' v) -> key_of con u = key_of con' v.
Proof.
  intro P. apply (sorted_perm_eq le); try apply sort_src_sorted.
  - intros x y. apply Nat.le_antisymm.
  - rewrite !key_of_srcs_perm. exact P.
Qed.
Lemma key_of_perm con con' t : Permutation con con' -> key_of con t = key_of con' t.
Proof. intro P. apply key_of_eq, srcs_of_perm, P. Qed.

(* dict[k] = f(dict.get(k, empty)) on an insertion-ordered dict: pairs[key].append(t) in
   add_pair and nodes_i[code].append(v) in add_code are instances *)
Section GroupBy.
  Context {K A T : Type}.
  Variable same : K -> K -> bool.
  Hypothesis same_eq : forall k k', same k k' = true <-> k = k'.
  Variable e0 : A.
  Fixpoint add_group (k : K) (f : A -> A) (l : list (K * A)) : list (K * A) :=
    match l with
    | [] => [(k, f e0)]
    | p :: r => if same k (fst p) then (fst p, f (snd p)) :: r else p :: add_group k f r
    end.

  (* dict.get(k, empty) *)
  Fixpoint get_group (k : K) (l : list (K * A)) : A :=
    match l with
    | [] => e0
    | p :: r => if same k (fst p) then snd p else get_group k r
    end.

  Lemma same_refl k : same k k = true.
  Proof using same_eq. apply same_eq. reflexivity. Qed.

  Lemma get_add_group k f l k' :
    get_group k' (add_group k f l) = if same k' k then f (get_group k l) else get_group k' l.
  Proof using same_eq.
    induction l as [|p r IH]; simpl.
    - destruct (same k' k); reflexivity.
    - destruct (same k (fst p)) eqn:E; simpl.
      + apply same_eq in E. subst k. destruct (same k' (fst p)); reflexivity.
      + destruct (same k' (fst p)) eqn:E'; [|exact IH].
        destruct (same k' k) eqn:E''; [|reflexivity].
        apply same_eq in E', E''. rewrite <- E'', E', same_refl in E. discriminate.
  Qed.
  Lemma add_group_keys k f l k' :
    In k' (map fst (add_group k f l)) <-> In k' (map fst l) \/ k' = k.
  Proof using same_eq.
    induction l as [|p r IH]; simpl.
    - intuition.
    - destruct (same k (fst p)) eqn:E; simpl.
      + apply same_eq in E. rewrite E. intuition.
      + rewrite IH. tauto.
  Qed.
  Lemma add_group_NoDup k f l : NoDup (map fst l) -> NoDup (map fst (add_group k f l)).
  Proof using same_eq.
    induction l as [|p r IH]; simpl; intro ND.
    - repeat constructor. simpl. tauto.
    - destruct (same k (fst p)) eqn:E; [exact ND|]. inversion ND as [|? ? Hp ND']; subst.
      simpl. constructor; auto. rewrite add_group_keys. intros [H|H]; [auto|].
      rewrite H, same_refl in E. discriminate.
  Qed.
  Lemma get_group_In l p : NoDup (map fst l) -> In p l -> get_group (fst p) l = snd p.
  Proof using same_eq.
    induction l as [|q r IH]; simpl; intros ND Hp; [destruct Hp|].
    inversion ND as [|? ? Hq ND']; subst. destruct Hp as [->|Hp].
    - rewrite same_refl. reflexivity.
    - destruct (same (fst p) (fst q)) eqn:E; auto. apply same_eq in E.
      destruct Hq. rewrite <- E. apply in_map, Hp.
  Qed.

  Variable key : T -> K.
  Variable upd : T -> A -> A.
  (* the value under key k after the items [done], and the dict after them: one entry per key
     that occurs, holding what its items made of the empty value *)
  Definition collected (k : K) (done : list T) : A :=
    fold_left (fun a t => upd t a) (filter (fun t => same k (key t)) done) e0.
  Definition grouped (done : list T) (l : list (K * A)) : Prop :=
    NoDup (map fst l) /\ (forall k, get_group k l = collected k done) /\
    (forall t, In t done -> In (key t) (map fst l)).

  Lemma collected_snoc k done t :
    collected k (done ++ [t]) = if same k (key t) then upd t (collected k done) else collected k done.
  Proof using.
    unfold collected. rewrite filter_app. simpl.
    destruct (same k (key t)); [apply fold_left_app|rewrite app_nil_r; reflexivity].
  Qed.

  Lemma fold_grouped (step : list (K * A) -> T -> list (K * A)) :
    (forall l t, step l t = add_group (key t) (upd t) l) ->
    forall ts done l, grouped done l -> grouped (done ++ ts) (fold_left step ts l).
  Proof using same_eq.
    intros Hstep. induction ts as [|t ts IH]; intros done l H; simpl.
    - rewrite app_nil_r. auto.
    - replace (done ++ t :: ts) with ((done ++ [t]) ++ ts) by (rewrite <- app_assoc; reflexivity).
      apply IH. rewrite Hstep. destruct H as [H1 [H2 H3]].
      split; [apply add_group_NoDup, H1|split].
      + intro k. rewrite get_add_group, collected_snoc, !H2.
        destruct (same k (key t)) eqn:E; [|reflexivity]. apply same_eq in E. rewrite E. reflexivity.
      + intros u Hu. apply add_group_keys. apply in_app_iff in Hu.
        destruct Hu as [Hu|[<-|[]]]; auto.
  Qed.
  Lemma grouped_nil : grouped [] [].
  Proof using. split; [constructor|]. split; [reflexivity|intros t []]. Qed.
  Lemma grouped_In done l p : grouped done l -> In p l -> snd p = collected (fst p) done.
  Proof using same_eq. intros [ND [H _]] Hp. rewrite <- H. symmetry. apply get_group_In; auto. Qed.
End GroupBy.

Definition p_ts (p : pairT) : list nat := fst (snd p).
Definition p_ws (p : pairT) : list (list nat) := snd (snd p).

Lemma add_pair_group key t w ps :
  add_pair key t w ps
  = add_group (fun k k' => natlist_eqb k' k) ([], []) key (fun s => (fst s ++ [t], snd s ++ [w])) ps.
Proof. induction ps as [|p r IH]; simpl; auto. rewrite IH. reflexivity. Qed.
Lemma same_key_eq (k k' : list nat) : natlist_eqb k' k = true <-> k = k'.
Proof. rewrite natlist_eqb_eq. split; congruence. Qed.
Lemma build_pairs_grouped con :
  grouped (fun k k' => natlist_eqb k' k) ([], []) (key_of con)
          (fun t s => (fst s ++ [t], snd s ++ [map snd (entries con t)]))
          (usort (map snd con)) (build_pairs con).
Proof.
  apply (fold_grouped _) with (done := []) (l := []).
  - exact same_key_eq.
  - intros l t. apply add_pair_group.
  - apply grouped_nil.
Qed.

Lemma build_pairs_fst_NoDup con : NoDup (map fst (build_pairs con)).
Proof. apply build_pairs_grouped. Qed.
(* an entry of the table: its targets are those with its key, in order, and row j of its
   weight-index matrix lists the connection rows into target j, sorted by source *)
Lemma build_pairs_entry con p : In p (build_pairs con) ->
  p_ts p = filter (fun u => natlist_eqb (key_of con u) (fst p)) (usort (map snd con)) /\
  p_ws p = map (fun u => map snd (entries con u)) (p_ts p).
Proof.
  intro Hp. pose proof (grouped_In _ same_key_eq _ _ _ _ _ _ (build_pairs_grouped con) Hp) as H.
  unfold collected in H. revert H. generalize (filter (fun u => natlist_eqb (key_of con u) (fst p)) (usort (map snd con))).
  intro l. assert (G : forall x y, fold_left (fun (s : list nat * list (list nat)) t =>
      (fst s ++ [t], snd s ++ [map snd (entries con t)])) l (x, y)
      = (x ++ l, y ++ map (fun u => map snd (entries con u)) l)).
  { induction l as [|t l IH]; intros x y; simpl; [rewrite !app_nil_r; auto|].
    rewrite IH, <- !app_assoc. reflexivity. }
  intro H. rewrite G in H. unfold p_ts, p_ws. rewrite H. simpl. auto.
Qed.
Lemma build_pairs_In con p t : In p (build_pairs con) ->
  (In t (p_ts p) <-> In t (map snd con) /\ key_of con t = fst p).
Proof.
  intro Hp. destruct (build_pairs_entry con p Hp) as [-> _].
  rewrite filter_In, usort_In, natlist_eqb_eq. reflexivity.
Qed.
Lemma build_pairs_targets con t :
  In t (map snd con) <-> exists p, In p (build_pairs con) /\ In t (p_ts p).
Proof.
  split.
  - intro H. destruct (build_pairs_grouped con) as [_ [_ Hc]].
    assert (Hk : In (key_of con t) (map fst (build_pairs con))) by (apply Hc, usort_In, H).
    apply in_map_iff in Hk. destruct Hk as [p [E Hp]]. exists p. split; auto. apply (build_pairs_In con p t Hp). auto.
  - intros [p [Hp Ht]]. apply (build_pairs_In con p t Hp), Ht.
Qed.
Lemma build_pairs_sorted con p : In p (build_pairs con) -> StronglySorted lt (p_ts p).
Proof.
  intro Hp. destruct (build_pairs_entry con p Hp) as [-> _]. apply sorted_filter, usort_sorted.
Qed.
Lemma build_pairs_group con p q v :
  In p (build_pairs con) -> In q (build_pairs con) -> In v (p_ts p) -> In v (p_ts q) -> p = q.
Proof.
  intros Hp Hq Hvp Hvq. apply (build_pairs_In con p v Hp) in Hvp. apply (build_pairs_In con q v Hq) in Hvq.
  destruct (build_pairs_entry con p Hp) as [Ep Ep'], (build_pairs_entry con q Hq) as [Eq Eq'].
  destruct p as [kp [tp wp]], q as [kq [tq wq]]. unfold p_ts, p_ws in *. simpl in *.
  destruct Hvp as [_ <-], Hvq as [_ <-]. subst. reflexivity.
Qed.

Definition targets (s : list group) : list nat := concat (map g_to s).
(* every group's sources are inputs or targets of earlier groups *)
Fixpoint well_sched (calc : list nat) (s : list group) : Prop :=
  match s with
  | [] => True
  | g :: r => incl (g_from g) calc /\ well_sched (calc ++ g_to g) r
  end.
Definition eligible (calc : list nat) (p : pairT) : bool :=
  subset (fst p) calc && negb (subset (p_ts p) calc).
Definition closed (calc : list nat) (PS : list pairT) : Prop :=
  forall p v, In p PS -> In v (p_ts p) -> In v calc -> incl (p_ts p) calc.
(* a schedule group is one entry of the pairs table *)
Definition group_of (acts : list (nat * nat)) (PS : list pairT) (g : group) : Prop :=
  exists p, In p PS /\ g_from g = fst p /\ g_to g = p_ts p /\ g_wid g = snd (snd p) /\
            act_groups acts (g_to g) [] = Some (g_act g).

Lemma targets_cons g s : targets (g :: s) = g_to g ++ targets s.
Proof. reflexivity. Qed.
Lemma targets_app s1 s2 : targets (s1 ++ s2) = targets s1 ++ targets s2.
Proof. unfold targets. rewrite map_app. apply concat_app. Qed.

Lemma well_sched_app c s1 s2 :
  well_sched c s1 -> well_sched (c ++ targets s1) s2 -> well_sched c (s1 ++ s2).
Proof.
  revert c. induction s1 as [|g r IH]; simpl; intros c H1 H2.
  - rewrite app_nil_r in H2. auto.
  - destruct H1 as [H1 H3]. split; auto. apply IH; auto.
    rewrite targets_cons, app_assoc in H2. auto.
Qed.

Lemma act_groups_some acts ts : forall acc,
  (forall t, In t ts -> exists c, alookup t acts = Some c) ->
  exists ag, act_groups acts ts acc = Some ag.
Proof.
  induction ts as [|t r IH]; intros acc H; simpl; eauto.
  destruct (H t (or_introl eq_refl)) as [c Hc]. rewrite Hc. apply IH.
  intros u Hu. apply H. simpl; auto.
Qed.

Section Pass.
  Variable acts : list (nat * nat).
  Variable PS : list pairT.
  Hypothesis PS_group : forall p q v, In p PS -> In q PS -> In v (p_ts p) -> In v (p_ts q) -> p = q.
  Hypothesis PS_nodup : forall p, In p PS -> NoDup (p_ts p).
  Hypothesis PS_act : forall p t, In p PS -> In t (p_ts p) -> exists c, alookup t acts = Some c.

  Lemma closed_app calc p : In p PS -> closed calc PS -> closed (calc ++ p_ts p) PS.
  Proof using PS_group.
    intros Hp Hc q v Hq Hv Hin. apply in_app_iff in Hin. destruct Hin as [Hin|Hin].
    - apply incl_appl. exact (Hc q v Hq Hv Hin).
    - rewrite (PS_group q p v); auto. apply incl_appr, incl_refl.
  Qed.

  (* one execution of the for loop from a duplicate-free calc: the targets of the emitted groups
     are appended to it without repetition; emitted groups are entries of the table whose sources
     are computed, an entry whose sources were computed at the start is computed at the end, and
     entries stay either wholly computed or wholly not *)
  Lemma pass_inv ps : forall calc, incl ps PS -> closed calc PS -> NoDup calc ->
    exists gs, pass acts calc ps = Some (calc ++ targets gs, gs) /\
      NoDup (calc ++ targets gs) /\
      (forall p, In p ps -> subset (fst p) calc = true -> incl (p_ts p) (calc ++ targets gs)) /\
      well_sched calc gs /\ Forall (group_of acts PS) gs /\ closed (calc ++ targets gs) PS.
  Proof using PS_group PS_nodup PS_act.
    induction ps as [|p r IH]; intros calc Hin Hc ND; simpl.
    - exists []. simpl. rewrite app_nil_r. split; auto. split; auto. split; [intros p []|].
      split; [exact I|]. split; auto.
    - assert (Hin' : incl r PS) by (intros x Hx; apply Hin; simpl; auto).
      assert (HpPS : In p PS) by (apply Hin; simpl; auto).
      fold (p_ts p). destruct (subset (fst p) calc && negb (subset (p_ts p) calc)) eqn:E.
      + destruct (act_groups_some acts (p_ts p) []) as [ag Hag]; [intros t Ht; apply (PS_act p t); auto|].
        rewrite Hag. apply andb_true_iff in E. destruct E as [Ek Et]. apply negb_true_iff in Et.
        assert (Hdis : forall v, In v calc -> In v (p_ts p) -> False).
        { intros v H1 H2. apply (Hc p v HpPS H2), subset_spec in H1. congruence. }
        rewrite (union_disjoint _ _ Hdis).
        destruct (IH (calc ++ p_ts p) Hin' (closed_app calc p HpPS Hc)) as [gs [E1 [I2 [I3 [I4 [I5 C1]]]]]];
          [apply NoDup_app_intro; auto|].
        rewrite E1. exists (mkG (fst p) (p_ts p) (snd (snd p)) ag :: gs).
        rewrite targets_cons. simpl g_to. rewrite app_assoc.
        split; auto. split; auto. split; [|split; [|split]]; auto.
        * intros q [<-|Hq] Hs.
          -- intros v Hv. apply in_app_iff. left. apply in_app_iff. auto.
          -- apply I3; auto. apply subset_spec. intros x Hx. apply in_app_iff. left.
             apply subset_spec in Hs. auto.
        * simpl. split; [apply subset_spec; exact Ek|exact I4].
        * constructor; auto. exists p. simpl. auto.
      + destruct (IH calc Hin' Hc ND) as [gs [E1 [I2 [I3 R]]]].
        rewrite E1. exists gs. split; auto. split; auto. split; auto.
        intros q [<-|Hq] Hs; auto.
        rewrite Hs in E. simpl in E. apply negb_false_iff, subset_spec in E.
        intros v Hv. apply in_app_iff. left. apply E. auto.
  Qed.
End Pass.

(* what the schedule needs of a net: Valid without uniqueness of the connection rows (duplicate
   rows add up in forward), without the outgoing-connection and weight-count clauses *)
Record Layered (n : net) : Prop := {
  l_sets     : NoDup (n_in n ++ hidden n ++ n_out n);
  l_rank     : exists rank, rank_ok n rank;
  l_incoming : forall v, In v (hidden n) \/ In v (n_out n) -> exists a, In (a, v) (n_con n);
  l_keys     : NoDup (map fst (n_act n));
  l_act      : forall v, In v (map fst (n_act n)) <-> In v (hidden n) \/ In v (n_out n)
}.
Lemma Valid_iff n :
  Valid n <-> Layered n /\ NoDup (n_con n) /\
              (forall v, In v (hidden n) -> exists b, In (v, b) (n_con n)) /\
              n_nw n = length (n_con n).
Proof.
  split.
  - intros [V1 V2 V3 V4 V5 V6 [V7 V8]]. split; [constructor; auto|auto].
  - intros [[L1 L2 L3 L4 L5] [H1 [H2 H3]]]. constructor; auto.
Qed.
Lemma Valid_Layered n : Valid n -> Layered n.
Proof. intro V. apply Valid_iff in V. tauto. Qed.
Lemma LInv_Layered nv n :
  LInv nv n -> (forall v, In v (hidden n) \/ In v (n_out n) -> exists a, In (a, v) (n_con n)) ->
  Layered n.
Proof.
  intros I Hin. constructor; auto.
  - exact (LInv_sets nv n I).
  - exists (rank_of n). exact (LInv_rank_ok nv n I).
  - exact (li_ak _ _ I).
  - exact (LInv_act nv n I).
Qed.

(* the boolean forms the correspondence evaluates on the implementation's nets *)
Lemma nodupb_NoDup l : nodupb l = true <-> NoDup l.
Proof.
  induction l as [|h t IH]; simpl; [split; auto; constructor|].
  rewrite andb_true_iff, negb_true_iff, mem_false, IH. split.
  - intros [H1 H2]. constructor; auto.
  - intro H. inversion H; auto.
Qed.
Lemma nodup_pairs_NoDup l : nodup_pairs l = true -> NoDup l.
Proof.
  induction l as [|h t IH]; simpl; intro H; constructor; apply andb_true_iff in H; [|tauto].
  destruct H as [H _]. apply negb_true_iff in H. rewrite <- existsb_pair_In. congruence.
Qed.
Lemma rank_ok_rank_of n rank v : NoDup (n_in n ++ hidden n ++ n_out n) -> rank_ok n rank ->
  In v (n_in n) \/ In v (hidden n) \/ In v (n_out n) -> rank v = rank_of n v.
Proof.
  intros ND R H. assert (Hl : exists k, level n v k).
  { destruct H as [H|[H|H]]; [exists 0; apply level_in; auto| |eexists; apply level_out; auto].
    apply hidden_level in H. destruct H as [k [H _]]. eauto. }
  destruct Hl as [k Hl]. rewrite (rank_ok_level n rank v k R Hl). symmetry. apply level_rank_of; auto.
Qed.
Theorem layered_b_iff n : layered_b n = true <-> Layered n.
Proof.
  unfold layered_b. rewrite !andb_true_iff, !nodupb_NoDup, set_eq_spec, !forallb_forall. split.
  - intros [[[[A1 A2] A3] A4] A5]. constructor; auto.
    + exists (rank_of n). apply rank_of_ok; auto. intros a b Hab. specialize (A2 _ Hab). simpl in A2.
      rewrite !andb_true_iff, !orb_true_iff, !mem_In, Nat.ltb_lt in A2. tauto.
    + intros v Hv. apply in_app_iff, A3, existsb_exists in Hv. destruct Hv as [[a b] [Hab E]].
      apply Nat.eqb_eq in E. simpl in E. subst. eauto.
    + intro v. rewrite A5, in_app_iff. tauto.
  - intros [L1 [rank R] L3 L4 L5]. repeat split; auto.
    + intros [a b] Hab. simpl. destruct R as [R1 [R2 [R3 R4]]]. destruct (R4 a b Hab) as [Hr [Ha Hb]].
      rewrite !andb_true_iff, !orb_true_iff, !mem_In, Nat.ltb_lt.
      rewrite <- !(rank_ok_rank_of n rank) by (unfold rank_ok; tauto). auto.
    + intros v Hv. apply in_app_iff, L3 in Hv. destruct Hv as [a Ha]. apply existsb_exists.
      exists (a, v). split; auto. apply Nat.eqb_refl.
    + rewrite L5, in_app_iff. tauto.
    + rewrite L5, in_app_iff. tauto.
Qed.
Theorem valid_b_sound n : valid_b n = true -> Valid n.
Proof.
  intro H. assert (H' : layered_b n = true /\ nodup_pairs (n_con n) = true /\
      forallb (fun v => existsb (fun c => fst c =? v) (n_con n)) (hidden n) = true /\
      (n_nw n =? length (n_con n)) = true).
  { unfold valid_b, layered_b in *. rewrite !andb_true_iff in *. tauto. }
  destruct H' as [H1 [H2 [H3 H4]]]. apply Valid_iff.
  split; [apply layered_b_iff; auto|]. split; [apply nodup_pairs_NoDup; auto|].
  split; [|apply Nat.eqb_eq; auto].
  intros v Hv. rewrite forallb_forall in H3. apply H3, existsb_exists in Hv.
  destruct Hv as [[a b] [Hab E]]. apply Nat.eqb_eq in E. simpl in E. subst. eauto.
Qed.

Lemma purpose_In n v : In v (purpose n) <-> In v (n_in n) \/ In v (hidden n) \/ In v (n_out n).
Proof. unfold purpose. rewrite !union_In, assemble_In. unfold hidden. tauto. Qed.

Lemma layered_targets n : Layered n ->
  forall t, In t (map snd (n_con n)) <-> In t (hidden n ++ n_out n).
Proof.
  intros V t. rewrite in_app_iff, In_snd. split.
  - intros [a Hc]. destruct (l_rank n V) as [rank [_ [_ [_ R]]]]. apply (R a t Hc).
  - apply (l_incoming n V).
Qed.

Lemma layered_disjoint n : Layered n -> forall v, In v (n_in n) -> In v (hidden n ++ n_out n) -> False.
Proof. intros V. pose proof (l_sets n V) as H. apply NoDup_app_elim in H. tauto. Qed.

Definition pending (calc : list nat) (ps : list pairT) : nat :=
  length (filter (fun p => negb (subset (p_ts p) calc)) ps).

Lemma pending_lt calc calc' ps p : NoDup ps ->
  incl calc calc' -> In p ps -> eligible calc p = true -> incl (p_ts p) calc' ->
  pending calc' ps < pending calc ps.
Proof.
  intros ND Hi Hp He Hd. apply andb_true_iff in He. destruct He as [_ He].
  apply (NoDup_incl_length (l := p :: _)).
  - constructor; [|apply NoDup_filter, ND]. rewrite filter_In, negb_true_iff.
    intros [_ Hc]. apply subset_spec in Hd. congruence.
  - intros x [<-|Hx]; apply filter_In; [auto|]. apply filter_In in Hx. destruct Hx as [Hx Hg]. split; auto.
    apply negb_true_iff in Hg. apply negb_true_iff. destruct (subset (p_ts x) calc) eqn:Es; auto.
    rewrite (proj2 (subset_spec (p_ts x) calc')) in Hg; [discriminate|].
    apply subset_spec in Es. eapply incl_tran; eauto.
Qed.

Lemma order_loop_unfold fuel acts calc purpose ps acc :
  order_loop fuel acts calc purpose ps acc =
  if set_eq calc purpose then Some acc
  else match fuel with
       | O => None
       | S f => match pass acts calc ps with
                | Some (c', gs) => order_loop f acts c' purpose ps (acc ++ gs)
                | None => None
                end
       end.
Proof. destruct fuel; reflexivity. Qed.

Section Loop.
  Variable n : net.
  Hypothesis L : Layered n.
  Let ps := build_pairs (n_con n).

  Lemma ps_targets t : In t (hidden n ++ n_out n) <-> exists p, In p ps /\ In t (p_ts p).
  Proof using L. rewrite <- (layered_targets n L). apply build_pairs_targets. Qed.
  Lemma groups_targets gs : Forall (group_of (n_act n) ps) gs -> incl (targets gs) (hidden n ++ n_out n).
  Proof using L.
    intros G v Hv. unfold targets in Hv. apply in_concat in Hv. destruct Hv as [l [Hl Hv]].
    apply in_map_iff in Hl. destruct Hl as [g [<- Hg]].
    rewrite Forall_forall in G. destruct (G g Hg) as [p [Hp [_ [Et _]]]].
    apply ps_targets. exists p. rewrite <- Et. auto.
  Qed.

  (* if no group can be emitted, everything is computed (strong induction on the rank) *)
  Lemma no_eligible_done calc : incl (n_in n) calc ->
    existsb (eligible calc) ps = false -> incl (purpose n) calc.
  Proof using L.
    intros Hin Hne.
    destruct (l_rank n L) as [rank [R1 [R2 [R3 R4]]]].
    assert (Main : forall k v, rank v < k -> In v (purpose n) -> In v calc).
    { induction k as [|k IH]; intros v Hk Hv; [lia|].
      apply purpose_In in Hv. destruct Hv as [Hv|Hv]; [apply Hin; auto|].
      apply in_app_iff, ps_targets in Hv. destruct Hv as [p [Hp Ht]].
      assert (Hs : subset (fst p) calc = true).
      { apply subset_spec. intros a Ha. apply (build_pairs_In _ p v Hp) in Ht. destruct Ht as [_ Ek].
        rewrite <- Ek in Ha. apply key_of_In in Ha. destruct (R4 a v Ha) as [Hr [Ha' _]]. apply IH; [lia|].
        apply purpose_In. tauto. }
      assert (He : eligible calc p = false).
      { destruct (eligible calc p) eqn:E; auto. rewrite <- Hne. symmetry.
        apply existsb_exists. eauto. }
      unfold eligible in He. rewrite Hs in He. apply negb_false_iff, subset_spec in He. auto. }
    intros v Hv. apply (Main (S (rank v))); auto.
  Qed.

  (* between two passes calc = inputs ++ targets emitted so far, each emitted once *)
  Record loop_inv (acc : list group) : Prop := {
    lv_closed : closed (n_in n ++ targets acc) ps;
    lv_nodup  : NoDup (n_in n ++ targets acc);
    lv_sched  : well_sched (n_in n) acc;
    lv_groups : Forall (group_of (n_act n) ps) acc
  }.

  Lemma loop_init : loop_inv [].
  Proof using L.
    constructor; simpl; rewrite ?app_nil_r.
    - intros p v Hp Hv Hc. destruct (layered_disjoint n L v); auto. apply ps_targets. eauto.
    - pose proof (l_sets n L) as H. apply NoDup_app_elim in H. tauto.
    - exact I.
    - constructor.
  Qed.
  Lemma loop_done acc : loop_inv acc -> set_eq (n_in n ++ targets acc) (purpose n) = true ->
    forall v, In v (targets acc) <-> In v (hidden n ++ n_out n).
  Proof using L.
    intros I E v. rewrite set_eq_spec in E. split; [apply groups_targets, (lv_groups _ I)|]. intro Hv.
    assert (Hp : In v (purpose n)) by (apply purpose_In; apply in_app_iff in Hv; tauto).
    apply E, in_app_iff in Hp. destruct Hp as [Hp|Hp]; auto.
    destruct (layered_disjoint n L v); auto.
  Qed.
  (* an unfinished loop makes a pass, which emits at least one group *)
  Lemma loop_next acc : let calc := n_in n ++ targets acc in
    loop_inv acc -> set_eq calc (purpose n) = false ->
    exists gs, pass (n_act n) calc ps = Some (n_in n ++ targets (acc ++ gs), gs) /\
               loop_inv (acc ++ gs) /\
               pending (n_in n ++ targets (acc ++ gs)) ps < pending calc ps.
  Proof using L.
    intros calc [I3 I4 I5 I6] E. fold calc in I3, I4.
    destruct (pass_inv (n_act n) ps) with (ps := ps) (calc := calc)
      as [gs [Ep [P2 [P3 [P4 [P5 Q1]]]]]]; auto using incl_refl.
    { apply build_pairs_group. }
    { intros p Hp. apply (sorted_NoDup lt), (build_pairs_sorted _ p Hp). apply Nat.lt_irrefl. }
    { intros p t Hp Ht. apply alookup_Some, (l_act n L), in_app_iff, ps_targets. eauto. }
    exists gs. rewrite targets_app, app_assoc. fold calc. split; auto.
    split.
    - constructor; rewrite ?targets_app, ?app_assoc; fold calc; auto.
      + apply well_sched_app; auto.
      + apply Forall_app. auto.
    - assert (Hex : existsb (eligible calc) ps = true).
      { destruct (existsb (eligible calc) ps) eqn:Ex; auto. rewrite <- E.
        apply set_eq_spec. intro v. split.
        - intro Hv. apply in_app_iff in Hv. apply purpose_In. destruct Hv as [Hv|Hv]; auto.
          apply (groups_targets _ I6), in_app_iff in Hv. tauto.
        - apply no_eligible_done; auto. intros x Hx. apply in_app_iff. auto. }
      apply existsb_exists in Hex. destruct Hex as [p [Hp He]].
      apply (pending_lt calc (calc ++ targets gs) ps p); auto.
      + apply (NoDup_map_inv fst), build_pairs_fst_NoDup.
      + intros v Hv. apply in_app_iff. auto.
      + apply P3; auto. apply andb_true_iff in He. tauto.
  Qed.

  Lemma order_loop_ok : forall fuel calc acc, calc = n_in n ++ targets acc ->
    pending calc ps <= fuel -> loop_inv acc ->
    exists s, order_loop fuel (n_act n) calc (purpose n) ps acc = Some s /\
              loop_inv s /\ set_eq (n_in n ++ targets s) (purpose n) = true.
  Proof using L.
    induction fuel as [|f IH]; intros calc acc -> Hpend I; rewrite order_loop_unfold;
      destruct (set_eq (n_in n ++ targets acc) (purpose n)) eqn:E; eauto;
      destruct (loop_next acc I E) as [gs [Ep [I' Hlt]]]; [lia|].
    rewrite Ep. apply IH; auto. lia.
  Qed.
End Loop.

Theorem order_terminates n : Layered n ->
  exists s, get_order (order_fuel n) n = Some s /\
            well_sched (n_in n) s /\
            Permutation (targets s) (hidden n ++ n_out n) /\
            Forall (group_of (n_act n) (build_pairs (n_con n))) s.
Proof.
  intro V. unfold get_order, order_fuel.
  destruct (order_loop_ok n V (length (build_pairs (n_con n))) (n_in n) [] (eq_sym (app_nil_r _)))
    as [s [E [I D]]].
  - unfold pending. induction (build_pairs (n_con n)) as [|h t IH]; simpl; auto.
    destruct (negb (subset (p_ts h) (n_in n))); simpl; lia.
  - apply loop_init; auto.
  - exists s. split; auto. split; [apply I|]. split; [|apply I].
    pose proof (lv_nodup n s I) as N. apply NoDup_app_elim in N.
    pose proof (l_sets n V) as H. apply NoDup_app_elim in H.
    apply NoDup_Permutation; [tauto|tauto|apply (loop_done n V s I D)].
Qed.

Lemma order_loop_mono acts purpose ps : forall fuel k calc acc s,
  order_loop fuel acts calc purpose ps acc = Some s ->
  order_loop (fuel + k) acts calc purpose ps acc = Some s.
Proof.
  induction fuel as [|f IH]; intros k calc acc s; rewrite !order_loop_unfold;
    destruct (set_eq calc purpose); auto; [discriminate|]. simpl.
  destruct (pass acts calc ps) as [[c' gs]|]; [|discriminate]. apply IH.
Qed.

Definition has_code (acts : list (nat * nat)) (c v : nat) : bool :=
  match alookup v acts with Some c' => c' =? c | None => false end.
Lemma has_code_true acts c v : has_code acts c v = true <-> alookup v acts = Some c.
Proof.
  unfold has_code. destruct (alookup v acts) as [c'|]; [|split; discriminate].
  rewrite Nat.eqb_eq. split; congruence.
Qed.

Lemma add_code_group c v l :
  add_code c v l = add_group Nat.eqb (@nil nat) c (fun ns => ns ++ [v]) l.
Proof. induction l as [|p r IH]; simpl; auto. rewrite IH. reflexivity. Qed.
Definition code_of (acts : list (nat * nat)) (t : nat) : nat :=
  match alookup t acts with Some c => c | None => 0 end.
Lemma act_groups_fold acts ts : forall acc ag, act_groups acts ts acc = Some ag ->
  (forall t, In t ts -> exists c, alookup t acts = Some c) /\
  ag = fold_left (fun l t => add_code (code_of acts t) t l) ts acc.
Proof.
  induction ts as [|t r IH]; simpl; intros acc ag H.
  - inversion H. split; auto. intros t [].
  - destruct (alookup t acts) as [c|] eqn:E; [|discriminate]. destruct (IH _ _ H) as [H1 H2].
    split; [intros u [<-|Hu]; eauto|]. unfold code_of at 2. rewrite E. exact H2.
Qed.
Lemma fold_left_snoc {A} (l : list A) : forall x, fold_left (fun ns t => ns ++ [t]) l x = x ++ l.
Proof.
  induction l as [|t l IH]; intro x; simpl; [rewrite app_nil_r; auto|].
  rewrite IH, <- app_assoc. reflexivity.
Qed.

(* the activation groups of a schedule group (nodes_i): codes distinct, the nodes of code c are
   exactly the targets with that code, in target order *)
Lemma act_groups_spec acts ts ag :
  act_groups acts ts [] = Some ag ->
  NoDup (map fst ag) /\
  (forall c ns, In (c, ns) ag -> ns = filter (has_code acts c) ts) /\
  (forall v c, In v ts -> alookup v acts = Some c -> In (c, filter (has_code acts c) ts) ag).
Proof.
  intro H. destruct (act_groups_fold _ _ _ _ H) as [Hall ->].
  pose proof (fold_grouped Nat.eqb Nat.eqb_eq [] (code_of acts) (fun t ns => ns ++ [t]) _
                (fun l t => add_code_group _ t l) ts [] [] (grouped_nil _ _ _ _)) as G.
  simpl in G. set (ag := fold_left _ ts []) in *.
  pose proof (fun p => grouped_In _ Nat.eqb_eq _ _ _ _ _ p G) as G2. destruct G as [G1 [_ G3]].
  assert (Hcode : forall t c, In t ts -> (code_of acts t = c <-> alookup t acts = Some c)).
  { intros t c Ht. destruct (Hall t Ht) as [c' Hc']. unfold code_of. rewrite Hc'. split; congruence. }
  assert (Hcol : forall c ns, In (c, ns) ag -> ns = filter (has_code acts c) ts).
  { intros c ns Hin. apply G2 in Hin. simpl in Hin. rewrite Hin. unfold collected. rewrite fold_left_snoc. apply filter_ext_in.
    intros t Ht. apply Bool.eq_iff_eq_true. rewrite Nat.eqb_eq, has_code_true, <- (Hcode t c Ht). split; congruence. }
  split; auto. split; auto.
  intros v c Hv Hl.
  assert (Hk : In c (map fst ag)) by (rewrite <- (proj2 (Hcode v c Hv) Hl); apply G3, Hv).
  apply In_fst in Hk. destruct Hk as [ns Hin]. rewrite <- (Hcol c ns Hin). exact Hin.
Qed.

Definition group_wf (g : group) : Prop :=
  length (g_wid g) = length (g_to g) /\ forall cg, In cg (g_act g) -> incl (snd cg) (g_to g).
Lemma group_of_wf acts con g : group_of acts (build_pairs con) g -> group_wf g.
Proof.
  intros [p [Hp [Ef [Et [Ew Hag]]]]].
  destruct (build_pairs_entry con p Hp) as [_ HL].
  destruct (act_groups_spec _ _ _ Hag) as [_ [A2 _]].
  split; [fold (p_ws p) in Ew; rewrite Et, Ew, HL; apply map_length|].
  intros [c ns] Hin u Hu. simpl in Hu. rewrite (A2 c ns Hin) in Hu. apply filter_In in Hu. tauto.
Qed.
