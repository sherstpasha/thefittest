(* NetProofs2.v — C13, part 2: the decoder keeps the layering invariant, _fix establishes Valid,
   C13_decode_valid.                                                                             *)
From TF Require Import Base Net NetAlgebra NetProofs.
Local Open Scope nat_scope.

Lemma net_op_LInv fixed nv o a b :
  LInv nv a -> LInv nv b -> n_out a = [] -> n_out b = [] ->
  (forall v, In v (hidden a) -> In v (hidden b) -> False) ->
  exists r, net_op fixed OPFUEL o a b = Some r /\ LInv nv r /\ n_out r = [] /\
            (forall v, In v (hidden r) <-> In v (hidden a) \/ In v (hidden b)).
Proof.
  intros Ia Ib Oa Ob HD.
  destruct (net_op_total fixed o a b) as [r [Hr [E|[E|E]]]]; specialize (Hr 0); exists r; subst r;
    (split; [auto|split; [|split]]).
  - apply gt_plain_LInv; auto. rewrite Ob, app_nil_r. exact HD.
  - rewrite gt_plain_out, Oa, Ob. reflexivity.
  - intro v. rewrite hidden_gt_plain, in_app_iff. tauto.
  - apply gt_plain_LInv; auto. rewrite Oa, app_nil_r. intros v H H'. apply (HD v); auto.
  - rewrite gt_plain_out, Oa, Ob. reflexivity.
  - intro v. rewrite hidden_gt_plain, in_app_iff. tauto.
  - apply add_plain_LInv; auto.
  - simpl. rewrite Oa, Ob. reflexivity.
  - apply hidden_add_plain.
Qed.

(* input blocks are sets of column ids; sizes / activations of hidden blocks are arbitrary *)
Fixpoint wf_tree (nv : nat) (t : gtree) : Prop :=
  match t with
  | TIn ids => NoDup ids /\ forall v, In v ids -> v < nv
  | TBias => True
  | THid _ _ => True
  | TNode _ l r => wf_tree nv l /\ wf_tree nv r
  end.

Lemma unit_in_LInv nv ids :
  NoDup ids -> (forall v, In v ids -> v < nv) -> LInv nv (unit_in ids).
Proof.
  intros H1 H2. constructor; unfold hidden; simpl; auto.
  - intros v [].
  - constructor.
  - intros a b [].
  - constructor.
  - intros v. tauto.
Qed.
Lemma unit_hid_LInv nv ids act :
  NoDup ids -> (forall v, In v ids -> nv <= v) -> LInv nv (unit_hid ids act).
Proof.
  intros H1 H2. constructor; unfold hidden; simpl; rewrite ?app_nil_r, ?unit_keys; auto.
  - intros v [].
  - constructor.
  - intros a b [].
  - intros v. tauto.
Qed.
Lemma unit_out_LInv nv ids act :
  NoDup ids -> (forall v, In v ids -> nv <= v) -> LInv nv (unit_out ids act).
Proof.
  intros H1 H2. constructor; unfold hidden; simpl; rewrite ?unit_keys; auto.
  - intros v [].
  - constructor.
  - intros a b [].
  - intros v. tauto.
Qed.

Local Arguments net_op : simpl never.
Lemma decode_rec_inv fixed nv t : 1 <= nv -> wf_tree nv t -> forall n, nv <= n ->
  exists r n', decode_rec fixed nv t n = Some (r, n') /\ n <= n' /\
    LInv nv r /\ n_out r = [] /\ (forall v, In v (hidden r) <-> n <= v < n').
Proof.
  intros Hnv. induction t as [ids| |s act|o l IHl r IHr]; simpl; intros Hwf n Hn.
  - exists (unit_in ids), n. destruct Hwf.
    split; [reflexivity|split; [lia|split; [apply unit_in_LInv; auto|split; [reflexivity|]]]].
    intro v. unfold hidden; simpl. split; [tauto|lia].
  - exists (unit_in [nv - 1]), n.
    split; [reflexivity|split; [lia|split; [|split; [reflexivity|]]]].
    + apply unit_in_LInv. repeat constructor; auto. intros v [<-|[]]. lia.
    + intro v. unfold hidden; simpl. split; [tauto|lia].
  - exists (unit_hid (seq n s) act), (n + s).
    split; [reflexivity|split; [lia|split; [|split; [reflexivity|]]]].
    + apply unit_hid_LInv. apply seq_NoDup. intros v Hv. apply in_seq in Hv. lia.
    + intro v. unfold hidden; simpl. rewrite app_nil_r, in_seq. tauto.
  - destruct Hwf as [Hl Hr].
    destruct (IHr Hr n Hn) as [nr [n1 [Er [L1 [Ir [Or Hr']]]]]].
    destruct (IHl Hl n1 ltac:(lia)) as [nl [n2 [El [L2 [Il [Ol Hl']]]]]].
    rewrite Er, El.
    destruct (net_op_LInv fixed nv o nl nr Il Ir Ol Or) as [x [Ex [Ix [Ox Hx]]]].
    { intros v H1 H2. apply Hl' in H1. apply Hr' in H2. lia. }
    rewrite Ex. exists x, n2.
    split; [reflexivity|split; [lia|split; [auto|split; [auto|]]]].
    intro v. rewrite Hx, Hl', Hr'. lia.
Qed.

(* the reversed stack pass of genotype_to_phenotype_tree computes decode_rec *)
Lemma run_stack_app fixed nv xs ys st n :
  run_stack fixed nv (xs ++ ys) st n =
  match run_stack fixed nv xs st n with
  | Some (st', n') => run_stack fixed nv ys st' n'
  | None => None
  end.
Proof.
  revert st n. induction xs as [|g xs IH]; intros st n; simpl; auto.
  destruct g; auto.
  destruct st as [|x [|y st]]; auto. destruct (net_op fixed OPFUEL isgt x y); auto.
Qed.
Lemma run_stack_prefix fixed nv t : forall st n,
  run_stack fixed nv (rev (prefix t)) st n =
  match decode_rec fixed nv t n with
  | Some (r, n') => Some (r :: st, n')
  | None => None
  end.
Proof.
  induction t as [ids| |s act|o l IHl r IHr]; intros st n; simpl; auto.
  rewrite rev_app_distr, <- app_assoc, run_stack_app, IHr.
  destruct (decode_rec fixed nv r n) as [[nr n1]|]; auto.
  rewrite run_stack_app, IHl.
  destruct (decode_rec fixed nv l n1) as [[nl n2]|]; auto.
  simpl. destruct (net_op fixed OPFUEL o nl nr); auto.
Qed.

Lemma find_layer_none v hs s : ~ In v (concat hs) -> find_layer v hs s = None.
Proof.
  revert s. induction hs as [|L hs IH]; intros s H; simpl; auto.
  simpl in H. rewrite in_app_iff in H. destruct (mem v L) eqn:E.
  - apply mem_In in E. tauto.
  - apply IH. tauto.
Qed.
Lemma find_layer_nth v hs : NoDup (concat hs) -> forall i L s,
  nth_error hs i = Some L -> In v L -> find_layer v hs s = Some (s + i).
Proof.
  induction hs as [|H hs IH]; intros ND i L s Hi Hv.
  - destruct i; discriminate.
  - simpl in ND. apply NoDup_app_elim in ND. destruct ND as [N1 [N2 N3]].
    destruct i; simpl in *.
    + inversion Hi; subst. rewrite (proj2 (mem_In v L) Hv). f_equal. lia.
    + destruct (mem v H) eqn:E.
      * apply mem_In in E. exfalso. apply (N3 v); auto.
        apply In_concat_nth. eauto.
      * rewrite (IH N2 i L (S s)); auto. f_equal. lia.
Qed.
Lemma level_rank_of n v k :
  NoDup (n_in n ++ hidden n ++ n_out n) -> level n v k -> rank_of n v = k.
Proof.
  intros ND H. apply NoDup_app_elim in ND. destruct ND as [N1 [N2 N3]].
  apply NoDup_app_elim in N2. destruct N2 as [N4 [N5 N6]].
  unfold rank_of. destruct H as [[-> H]|[[i [L [-> [Hi Hv]]]]|[-> H]]].
  - rewrite (proj2 (mem_In v (n_in n)) H). auto.
  - assert (Hh : In v (hidden n)) by (apply In_concat_nth; eauto).
    rewrite (proj2 (mem_false v (n_in n))).
    + rewrite (find_layer_nth v (n_hid n) N4 i L 0); auto.
    + intro Hc. apply (N3 v); auto. apply in_app_iff; auto.
  - rewrite (proj2 (mem_false v (n_in n))).
    + rewrite find_layer_none; auto. intro Hc. apply (N6 v); auto.
    + intro Hc. apply (N3 v); auto. apply in_app_iff; auto.
Qed.
Lemma rank_ok_level n rank v k : rank_ok n rank -> level n v k -> rank v = k.
Proof.
  intros [R1 [R2 [R3 _]]] [[-> H]|[[i [L [-> [Hi Hv]]]]|[-> H]]]; eauto.
Qed.

Lemma rank_of_ok n : NoDup (n_in n ++ hidden n ++ n_out n) ->
  (forall a b, In (a, b) (n_con n) -> rank_of n a < rank_of n b /\
     (In a (n_in n) \/ In a (hidden n)) /\ (In b (hidden n) \/ In b (n_out n))) ->
  rank_ok n (rank_of n).
Proof.
  intros ND Hc. split; [|split; [|split]]; auto.
  - intros v Hv. apply level_rank_of; auto. apply level_in; auto.
  - intros i L v Hi Hv. apply level_rank_of; auto. eapply level_hid; eauto.
  - intros v Hv. apply level_rank_of; auto. apply level_out; auto.
Qed.
Lemma LInv_sets nv n : LInv nv n -> NoDup (n_in n ++ hidden n ++ n_out n).
Proof.
  intro I. apply NoDup_app_intro; try apply I.
  intros x H1 H2. apply (li_in _ _ I) in H1. apply (li_ho _ _ I) in H2. lia.
Qed.
Lemma LInv_rank_ok nv n : LInv nv n -> rank_ok n (rank_of n).
Proof.
  intro I. pose proof (LInv_sets nv n I) as ND. apply rank_of_ok; auto.
  intros a b Hab. destruct (li_con _ _ I a b Hab) as [ka [kb [La [Lb Hk]]]].
  rewrite (level_rank_of n a ka), (level_rank_of n b kb); auto.
  split; auto. apply level_node in La. apply level_node in Lb. split.
  - destruct La as [[_ H]|[[_ H]|[-> _]]]; auto. lia.
  - destruct Lb as [[-> _]|[[_ H]|[_ H]]]; auto. lia.
Qed.

Lemma LInv_act nv n : LInv nv n -> forall v, In v (map fst (n_act n)) <-> In v (hidden n) \/ In v (n_out n).
Proof. intros I v. rewrite (li_act _ _ I), in_app_iff. tauto. Qed.

Lemma LInv_Valid nv n :
  LInv nv n -> NoDup (n_con n) ->
  (forall v, In v (hidden n) \/ In v (n_out n) -> exists a, In (a, v) (n_con n)) ->
  (forall v, In v (hidden n) -> exists b, In (v, b) (n_con n)) ->
  Valid n.
Proof.
  intros I ND Hin Hout. constructor; auto.
  - exact (LInv_sets nv n I).
  - exists (rank_of n). exact (LInv_rank_ok nv n I).
  - exact (li_nw _ _ I).
  - exact (conj (li_ak _ _ I) (LInv_act nv n I)).
Qed.

Lemma gt_to_out O act y : In y (gt_to (unit_out O act)) <-> In y O.
Proof. unfold gt_to. simpl. rewrite diff_In, union_In. simpl. tauto. Qed.

(* pack[0] > Net(outputs=O): every node of a that had no outgoing row gets one to every output *)
Lemma final_gt nv a O act :
  LInv nv a -> n_out a = [] -> NoDup O -> O <> [] ->
  (forall o, In o O -> nv <= o /\ ~ In o (hidden a)) ->
  let r := gt_plain a (unit_out O act) in
  LInv nv r /\ n_in r = n_in a /\ n_hid r = n_hid a /\ n_out r = O /\
  (forall v, In v (hidden r) -> exists b, In (v, b) (n_con r)) /\
  (forall x o, In o O -> (In (x, o) (n_con r) <-> In x (gt_from a))).
Proof.
  intros Ia Oa ND Hne HO r.
  assert (Ehid : hidden r = hidden a) by (unfold r; rewrite hidden_gt_plain; apply app_nil_r).
  split; [|split; [|split; [|split; [|split]]]].
  - apply gt_plain_LInv; auto.
    + apply unit_out_LInv; auto. apply HO.
    + intros v Hv Ho. apply (HO v); auto.
  - unfold r. rewrite gt_plain_in. apply union_nil_r.
  - unfold r. rewrite gt_plain_hid. apply app_nil_r.
  - unfold r. rewrite gt_plain_out, Oa. apply union_nil_l.
  - rewrite Ehid. intros v Hv. destruct O as [|o O']; [congruence|].
    apply (gt_plain_outgoing a _ o); auto. apply gt_to_out. simpl; auto.
  - intros x o Ho. unfold r. rewrite gt_plain_con, !in_app_iff, gt_new_In, gt_to_out. simpl. split.
    + intros [Hc|[[]|[Hx _]]]; auto. exfalso.
      destruct (li_con _ _ Ia _ _ Hc) as [ka [kb [_ [H2 _]]]]. apply level_node in H2.
      destruct (HO o Ho) as [Hge Hnh].
      destruct H2 as [[_ H2]|[[_ H2]|[_ H2]]]; auto.
      * apply (li_in _ _ Ia) in H2. lia.
      * rewrite Oa in H2. destruct H2.
    + auto.
Qed.

Definition fix_to (n : net) : list nat :=
  diff (union (assemble (n_hid n)) (n_out n)) (map snd (n_con n)).
Definition fix_ins (inputs : list nat) (n : net) : list nat :=
  if is_nil (n_in n) then inputs else n_in n.
Definition fix_pre (inputs : list nat) (n : net) : net :=
  if is_nil (fix_to n) then n
  else mkNet (fix_ins inputs n) (n_hid n) (n_out n)
             (n_con n ++ fst (get_connect (fix_ins inputs n) (fix_to n)))
             (n_nw n + snd (get_connect (fix_ins inputs n) (fix_to n))) (n_act n).
Definition dedup_net (n : net) : net :=
  mkNet (n_in n) (n_hid n) (n_out n) (sort_dedup (n_con n))
        (Nat.min (n_nw n) (length (sort_dedup (n_con n)))) (n_act n).
Lemma fix_net_eq inputs n : fix_net inputs n = dedup_net (fix_pre inputs n).
Proof.
  unfold fix_net, dedup_net, fix_pre, fix_to, fix_ins.
  destruct (is_nil (diff _ _)); [reflexivity|].
  destruct (get_connect _ _). reflexivity.
Qed.

Lemma fix_to_In n v : In v (fix_to n) <-> (In v (hidden n) \/ In v (n_out n)) /\ ~ In v (map snd (n_con n)).
Proof. unfold fix_to. rewrite diff_In, union_In, assemble_In. tauto. Qed.
Lemma fix_pre_con inputs n x y :
  In (x, y) (n_con (fix_pre inputs n)) <->
  In (x, y) (n_con n) \/ (In x (fix_ins inputs n) /\ In y (fix_to n)).
Proof.
  unfold fix_pre. destruct (is_nil (fix_to n)) eqn:E.
  - apply is_nil_true in E. rewrite E. simpl. tauto.
  - simpl. rewrite in_app_iff, get_connect_In. tauto.
Qed.
Lemma fix_pre_in inputs n :
  n_in (fix_pre inputs n) = n_in n \/ n_in (fix_pre inputs n) = fix_ins inputs n.
Proof. unfold fix_pre. destruct (is_nil (fix_to n)); simpl; auto. Qed.
Lemma fix_pre_hid inputs n : n_hid (fix_pre inputs n) = n_hid n.
Proof. unfold fix_pre. destruct (is_nil (fix_to n)); reflexivity. Qed.
Lemma fix_pre_out inputs n : n_out (fix_pre inputs n) = n_out n.
Proof. unfold fix_pre. destruct (is_nil (fix_to n)); reflexivity. Qed.

Lemma LInv_add_rows nv n ins rows w :
  LInv nv n -> incl (n_in n) ins -> NoDup ins -> (forall v, In v ins -> v < nv) ->
  (forall x y, In (x, y) rows -> In x ins /\ (In y (hidden n) \/ In y (n_out n))) ->
  w = length rows ->
  LInv nv (mkNet ins (n_hid n) (n_out n) (n_con n ++ rows) (n_nw n + w) (n_act n)).
Proof.
  intros I Hins ND Hlt Hrows ->. set (m := mkNet _ _ _ _ _ _).
  assert (Hlev : forall v k, level n v k -> level m v k).
  { intros v k. apply level_mono; simpl; auto using incl_refl.
    intros i L Hi. exists L. auto using incl_refl. }
  constructor; simpl; try apply I; auto.
  - intros x y Hc. apply in_app_iff in Hc. destruct Hc as [Hc|Hc].
    + destruct (li_con _ _ I _ _ Hc) as [ka [kb [H1 [H2 H3]]]]. exists ka, kb. auto.
    + apply Hrows in Hc. destruct Hc as [Hx [Hy|Hy]].
      * apply hidden_level in Hy. destruct Hy as [k [Hy Hk]]. exists 0, k.
        split; [apply level_in; auto|split; [auto|lia]].
      * exists 0, (S (length (n_hid n))).
        split; [apply level_in; auto|split; [apply (level_out m); auto|lia]].
  - rewrite app_length, (li_nw _ _ I). reflexivity.
Qed.

Lemma fix_pre_LInv nv n :
  1 <= nv -> LInv nv n ->
  LInv nv (fix_pre (seq 0 nv) n) /\
  (forall v, In v (hidden n) \/ In v (n_out n) -> exists a, In (a, v) (n_con (fix_pre (seq 0 nv) n))).
Proof.
  intros Hnv I. set (ins := fix_ins (seq 0 nv) n).
  assert (Hins : incl (n_in n) ins /\ NoDup ins /\ (forall v, In v ins -> v < nv) /\ exists a, In a ins).
  { unfold ins, fix_ins. destruct (n_in n) as [|h t] eqn:E; cbn [is_nil].
    - split; [intros v []|]. split; [apply seq_NoDup|]. split.
      + intros v Hv. apply in_seq in Hv. lia.
      + exists 0. apply in_seq. lia.
    - split; [apply incl_refl|]. rewrite <- E. split; [apply I|]. split; [apply (li_in _ _ I)|].
      exists h. rewrite E. simpl; auto. }
  destruct Hins as [H1 [H2 [H3 [a0 H4]]]]. split.
  - unfold fix_pre. destruct (is_nil (fix_to n)); auto. fold ins.
    apply LInv_add_rows; auto using get_connect_len.
    intros x y Hc. apply get_connect_In in Hc. rewrite fix_to_In in Hc. tauto.
  - intros v Hv. destruct (in_dec Nat.eq_dec v (map snd (n_con n))) as [Hs|Hs].
    + apply In_snd in Hs. destruct Hs as [a Ha]. exists a. apply fix_pre_con. auto.
    + exists a0. apply fix_pre_con. right. rewrite fix_to_In. auto.
Qed.

Lemma dedup_LInv nv n : LInv nv n -> LInv nv (dedup_net n).
Proof.
  intros [a1 a2 a3 a4 a5 a6 a7 a8]. constructor; simpl; auto.
  - intros x y Hc. rewrite sort_dedup_In in Hc. destruct (a5 _ _ Hc) as [ka [kb H]].
    exists ka, kb. exact H.
  - pose proof (sort_dedup_length (n_con n)). lia.
Qed.

Lemma fix_net_hid inputs n : n_hid (fix_net inputs n) = n_hid n.
Proof. rewrite fix_net_eq. apply fix_pre_hid. Qed.
Lemma fix_net_out inputs n : n_out (fix_net inputs n) = n_out n.
Proof. rewrite fix_net_eq. apply fix_pre_out. Qed.
Lemma fix_net_con inputs n x y :
  In (x, y) (n_con (fix_net inputs n)) <->
  In (x, y) (n_con n) \/ (In x (fix_ins inputs n) /\ In y (fix_to n)).
Proof. rewrite fix_net_eq. simpl. rewrite sort_dedup_In. apply fix_pre_con. Qed.

(* Net._fix turns a net that satisfies the layering invariant and in which every hidden node
   already has an outgoing connection into a Valid net *)
Lemma fix_valid nv n :
  1 <= nv -> LInv nv n -> (forall v, In v (hidden n) -> exists b, In (v, b) (n_con n)) ->
  Valid (fix_net (seq 0 nv) n) /\ (forall v, In v (n_in (fix_net (seq 0 nv) n)) -> v < nv).
Proof.
  intros Hnv I Hout. destruct (fix_pre_LInv nv n Hnv I) as [I1 Hin].
  assert (Eh : hidden (fix_net (seq 0 nv) n) = hidden n) by (unfold hidden; rewrite fix_net_hid; auto).
  rewrite fix_net_eq. split; [|apply (li_in _ _ I1)].
  apply (LInv_Valid nv); [apply dedup_LInv; auto|apply sort_dedup_NoDup| |];
    rewrite <- fix_net_eq, Eh; try rewrite fix_net_out.
  - intros v Hv. destruct (Hin v Hv) as [a Ha]. exists a. rewrite fix_net_eq. apply sort_dedup_In, Ha.
  - intros v Hv. destruct (Hout v Hv) as [b Hb]. exists b. apply fix_net_con. auto.
Qed.

(* what genotype_to_phenotype_tree returns, beyond Valid *)
Record Decoded (nv nout : nat) (r : net) : Prop := {
  d_valid   : Valid r;
  d_inputs  : forall v, In v (n_in r) -> v < nv;                 (* inputs are columns of X *)
  d_ids     : exists n', (forall v, In v (hidden r) <-> nv <= v < n') /\ n_out r = seq n' nout;
                                                                  (* ids contiguous from nv, outputs last *)
  d_sources : forall o1 o2 x, In o1 (n_out r) -> In o2 (n_out r) ->
                              In (x, o1) (n_con r) -> In (x, o2) (n_con r)
                                                                  (* all outputs share one source set *)
}.

Theorem decode_valid fixed nv nout oact t :
  1 <= nv -> 1 <= nout -> wf_tree nv t ->
  exists r, decode fixed nv nout oact t = Some r /\ Decoded nv nout r.
Proof.
  intros Hnv Hno Hwf. unfold decode, decode_nodes.
  rewrite run_stack_prefix.
  destruct (decode_rec_inv fixed nv t Hnv Hwf nv (le_n nv)) as [a [n' [E [Hle [Ia [Oa Hh]]]]]].
  rewrite E. simpl. rewrite net_op_gt_plain by (left; reflexivity).
  set (g := gt_plain a (unit_out (seq n' nout) oact)).
  exists (fix_net (seq 0 nv) g). split; auto.
  destruct (final_gt nv a (seq n' nout) oact Ia Oa) as [Ig [Ein [Ehid [Eout [Hout Hsrc]]]]].
  { apply seq_NoDup. } { destruct nout; [lia|discriminate]. }
  { intros o Ho. apply in_seq in Ho. rewrite Hh. lia. }
  fold g in Ig, Ein, Ehid, Eout, Hout, Hsrc.
  destruct (fix_valid nv g Hnv Ig Hout) as [HV Hin].
  constructor; auto.
  - exists n'. split.
    + intro v. unfold hidden. rewrite fix_net_hid, Ehid. apply Hh.
    + rewrite fix_net_out. auto.
  - (* an output is an open target of _fix iff a had no open source *)
    assert (Ht : forall o, In o (seq n' nout) -> (In o (fix_to g) <-> gt_from a = [])).
    { intros o Ho. rewrite fix_to_In, In_snd. split.
      - intros [_ Hn]. destruct (gt_from a) as [|x0 l] eqn:Ef; auto. exfalso. apply Hn.
        exists x0. apply (Hsrc x0 o Ho). simpl; auto.
      - intro Ef. split; [right; rewrite Eout; auto|].
        intros [x' Hc']. apply (Hsrc x' o Ho) in Hc'. rewrite Ef in Hc'. destruct Hc'. }
    rewrite fix_net_out, Eout. intros o1 o2 x H1 H2. rewrite !fix_net_con.
    rewrite (Hsrc x o1 H1), (Hsrc x o2 H2), (Ht o1 H1), (Ht o2 H2). tauto.
Qed.

Inductive reach (con : list (nat * nat)) : nat -> nat -> Prop :=
| reach_step a b : In (a, b) con -> reach con a b
| reach_trans a b c : In (a, b) con -> reach con b c -> reach con a c.

Lemma reach_rank n rank a b : rank_ok n rank -> reach (n_con n) a b -> rank a < rank b.
Proof.
  intros [_ [_ [_ R]]] H. induction H as [a b H|a b c H _ IH].
  - apply R; auto.
  - destruct (R a b H) as [H1 _]. lia.
Qed.
