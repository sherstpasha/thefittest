(* RandomPrimsProofs.v — theorems about the models of RandomPrims.v (C11). *)
From TF Require Import Base RandomPrims.
From Coq Require Import Permutation.
Open Scope Q_scope.

Lemma mid_between l r : (1 < r - l)%nat -> (l < (l + r) / 2 < r)%nat.
Proof.
  intro H. split; [apply Nat.div_le_lower_bound with (b := 2%nat) (q := S l)|apply Nat.div_lt_upper_bound]; lia.
Qed.

Lemma bsi_loop_spec fuel : forall v c l r,
  (r - l <= fuel)%nat -> (l < r < length c)%nat -> nth l c 0 < v ->
  (v <= nth r c 0 \/ r = (length c - 1)%nat) ->
  let i := bsi_loop fuel v c l r in
  (l < i <= r)%nat /\ nth (i - 1) c 0 < v /\ (v <= nth i c 0 \/ i = (length c - 1)%nat).
Proof.
  induction fuel as [|f IH]; intros v c l r Hf Hlr Hl Hr; cbn [bsi_loop].
  - exfalso. lia.
  - destruct (Nat.ltb_spec 1 (r - l)) as [E|E].
    + pose proof (mid_between l r E) as Hmid. set (mid := ((l + r) / 2)%nat) in *.
      destruct (Qle_bool v (nth mid c 0)) eqn:Ev; [apply Qle_bool_iff in Ev|apply Qle_bool_false in Ev].
      * destruct (IH v c l mid) as (H1 & H2 & H3); try lia; auto. repeat split; try lia; auto.
      * destruct (IH v c mid r) as (H1 & H2 & H3); try lia; auto. repeat split; try lia; auto.
    + assert (r = S l) by lia. subst r.
      replace (S l - 1)%nat with l by lia. repeat split; try lia; auto.
Qed.

Definition sorted (c : list Q) : Prop :=
  forall i j, (i <= j < length c)%nat -> nth i c 0 <= nth j c 0.

Theorem bsi_spec v c : c <> [] ->
  let i := bsi v c in
  (i < length c)%nat /\ ((0 < i)%nat -> nth (i - 1) c 0 < v) /\
  (v <= nth i c 0 \/ i = (length c - 1)%nat).
Proof.
  intros Hne. unfold bsi. cbv zeta.
  assert (Hlen : (0 < length c)%nat) by (destruct c; simpl; [congruence|lia]).
  destruct (Qle_bool v (nth 0 c 0)) eqn:E.
  - apply Qle_bool_iff in E. repeat split; auto; lia.
  - apply Qle_bool_false in E.
    destruct (Nat.eq_dec (length c) 1) as [H1|H1].
    + rewrite H1. cbn. repeat split; try lia; try (right; lia).
    + pose proof (bsi_loop_spec (length c) v c 0 (length c - 1)) as H.
      cbv zeta in H. destruct H as (Ha & Hb & Hc); try lia; auto.
      repeat split; try lia; auto.
Qed.

Theorem bsi_first v c : c <> [] -> sorted c ->
  let i := bsi v c in
  (forall j, (j < i)%nat -> nth j c 0 < v) /\ (v <= nth i c 0 \/ i = (length c - 1)%nat).
Proof.
  intros Hne Hs. destruct (bsi_spec v c Hne) as (H1 & H2 & H3). cbv zeta. split; auto.
  intros j Hj. eapply Qle_lt_trans; [|apply H2; lia]. apply Hs. lia.
Qed.

Fixpoint Qsum (l : list Q) : Q := match l with [] => 0 | x :: t => x + Qsum t end.

Lemma cumsum_from_length acc w : length (cumsum_from acc w) = length w.
Proof. revert acc; induction w as [|x t IH]; intros; simpl; auto. Qed.

Lemma cumsum_length w : length (cumsum w) = length w.
Proof. apply cumsum_from_length. Qed.

Lemma cumsum_from_nth w : forall acc i, (i < length w)%nat ->
  nth i (cumsum_from acc w) 0 == acc + Qsum (firstn (S i) w).
Proof.
  induction w as [|x t IH]; intros acc i Hi; simpl in Hi; [lia|].
  destruct i as [|i].
  - cbn. destruct t; cbn; lra.
  - cbn [cumsum_from nth]. rewrite IH by lia. cbn [firstn Qsum]. lra.
Qed.

Definition nonneg (w : list Q) := Forall (fun x => 0 <= x) w.

Lemma total_eq w : w <> [] -> total w == Qsum w.
Proof.
  intros Hne. unfold total, cumsum.
  assert (Hl : (0 < length w)%nat) by (destruct w; simpl; [congruence|lia]).
  rewrite cumsum_from_nth by lia.
  replace (S (length w - 1)) with (length w) by lia. rewrite firstn_all. lra.
Qed.

Lemma cumsum_nonnil w : w <> [] -> cumsum w <> [].
Proof. destruct w; [congruence|discriminate]. Qed.

Lemma cumsum_from_succ w : forall acc i, (S i < length w)%nat ->
  nth (S i) (cumsum_from acc w) 0 == nth i (cumsum_from acc w) 0 + nth (S i) w 0.
Proof.
  induction w as [|x t IH]; intros acc i Hi; simpl in Hi; [lia|].
  destruct i as [|i]; cbn [cumsum_from nth]; [|apply IH; lia].
  destruct t; simpl in Hi; [lia|]. cbn. lra.
Qed.

Lemma cumsum_sorted w : nonneg w -> sorted (cumsum w).
Proof.
  intros Hw i j [Hij Hj]. unfold cumsum in *. rewrite cumsum_from_length in Hj.
  induction Hij as [|j Hij IH]; [lra|]. rewrite cumsum_from_succ by lia.
  pose proof (proj1 (Forall_nth _ w) Hw (S j) 0 Hj) as Hn. cbv beta in Hn. specialize (IH ltac:(lia)). lra.
Qed.

Lemma cumsum_step w i : (i < length w)%nat ->
  nth i (cumsum w) 0 == (if (i =? 0)%nat then 0 else nth (i - 1) (cumsum w) 0) + nth i w 0.
Proof.
  intros Hi. destruct i as [|i].
  - destruct w; [simpl in Hi; lia|]. cbn. lra.
  - cbn [Nat.eqb]. replace (S i - 1)%nat with i by lia. now apply cumsum_from_succ.
Qed.

Lemma weighted_pick_lt w u : w <> [] -> (weighted_pick w u < length w)%nat.
Proof.
  intro Hne. rewrite <- (cumsum_length w). exact (proj1 (bsi_spec (total w * u) (cumsum w) (cumsum_nonnil w Hne))).
Qed.

Theorem weighted_pick_interval w u : w <> [] -> nonneg w -> 0 < total w -> u < 1 ->
  let i := weighted_pick w u in
  let c := cumsum w in
  (i < length w)%nat /\ (forall j, (j < i)%nat -> nth j c 0 < total w * u) /\ total w * u <= nth i c 0.
Proof.
  intros Hne Hw HS Hu1. cbv zeta. split; [now apply weighted_pick_lt|].
  destruct (bsi_first (total w * u) (cumsum w) (cumsum_nonnil w Hne) (cumsum_sorted w Hw)) as (H1 & H2).
  split; [exact H1|]. destruct H2 as [H2|H2]; [exact H2|].
  unfold weighted_pick. rewrite H2, cumsum_length. fold (total w). nra.
Qed.

Theorem zero_weight_excluded w u : w <> [] -> nonneg w -> 0 < total w -> 0 < u -> u < 1 ->
  nth (weighted_pick w u) w 0 > 0.
Proof.
  intros Hne Hw HS Hu0 Hu1.
  destruct (weighted_pick_interval w u Hne Hw HS) as (Hi & Hlt & Hle); try lra.
  set (i := weighted_pick w u) in *.
  pose proof (cumsum_step w i Hi) as Hstep.
  destruct i as [|i]; cbn [Nat.eqb] in Hstep.
  - assert (0 < total w * u) by nra. lra.
  - replace (S i - 1)%nat with i in Hstep by lia. specialize (Hlt i (Nat.lt_succ_diag_r i)). lra.
Qed.

Lemma memZ_In v l : memZ v l = true <-> In v l.
Proof.
  unfold memZ. rewrite existsb_exists. split.
  - intros (x & Hx & He). apply Z.eqb_eq in He. subst; auto.
  - intros H. exists v. split; auto. apply Z.eqb_refl.
Qed.

(* random_sample_loop and rws_loop are one loop: they differ only in how a draw becomes an index *)
Fixpoint sample_loop (pick : draw -> option Z) (q : nat) (replace : bool) (acc : list Z) (ds : list draw)
  : option (list Z * list draw) :=
  match ds with
  | [] => if (q <=? length acc)%nat then Some (acc, []) else None
  | d :: r =>
    if (q <=? length acc)%nat then Some (acc, ds) else
    match pick d with
    | Some v => if negb replace && memZ v acc then sample_loop pick q replace acc r
                else sample_loop pick q replace (acc ++ [v]) r
    | None => None
    end
  end.
Definition pickI (n : Z) (d : draw) : option Z :=
  match d with DI m v => if (m =? n)%Z then Some v else None | _ => None end.
Definition pickW (w : list Q) (d : draw) : option Z :=
  match d with DU u => Some (Z.of_nat (weighted_pick w u)) | _ => None end.

Lemma random_sample_loop_eq n q replace ds : forall acc,
  random_sample_loop n q replace acc ds = sample_loop (pickI n) q replace acc ds.
Proof.
  induction ds as [|[u|m v|x] r IH]; intro acc; cbn; try reflexivity.
  destruct (m =? n)%Z; [now rewrite !IH|reflexivity].
Qed.
Lemma rws_loop_eq w q replace ds : forall acc,
  rws_loop w q replace acc ds = sample_loop (pickW w) q replace acc ds.
Proof. induction ds as [|[u|m v|x] r IH]; intro acc; cbn; try reflexivity. now rewrite !IH. Qed.

(* V: what is known of each draw (valid_draw, or nothing); P: what a picked index then satisfies *)
Lemma sample_loop_spec pick (V : draw -> Prop) (P : Z -> Prop) q replace :
  (forall d v, V d -> pick d = Some v -> P v) ->
  forall ds acc r ds', Forall V ds -> (length acc <= q)%nat -> Forall P acc -> (replace = false -> NoDup acc) ->
  sample_loop pick q replace acc ds = Some (r, ds') ->
  length r = q /\ Forall P r /\ (replace = false -> NoDup r) /\ Forall V ds'.
Proof.
  intro Hpick. induction ds as [|d ds IH]; intros acc r ds' Hv Hlen Hr Hnd H; cbn [sample_loop] in H;
    destruct (Nat.leb_spec q (length acc)) as [Hq|Hq]; try discriminate.
  1,2: inversion H; subst; repeat split; auto; lia.
  inversion Hv as [|? ? Hd Hv']; subst.
  destruct (pick d) as [v|] eqn:Ep; [|discriminate].
  destruct (negb replace && memZ v acc) eqn:Eb; [now apply (IH acc)|].
  apply (IH (acc ++ [v])); auto.
  - rewrite app_length; simpl; lia.
  - apply Forall_app; eauto.
  - intros ->. apply (Permutation_NoDup (Permutation_cons_append acc v)). constructor; auto.
    rewrite <- memZ_In. now destruct (memZ v acc).
Qed.

Lemma random_sample_all n q replace ds r ds' :
  valid_draws ds -> random_sample n q replace ds = Some (r, ds') ->
  length r = q /\ Forall (fun v => (0 <= v < n)%Z) r /\ (replace = false -> NoDup r) /\ valid_draws ds'.
Proof.
  intros Hv H. unfold random_sample in H. rewrite random_sample_loop_eq in H.
  refine (sample_loop_spec (pickI n) valid_draw _ q replace _ ds [] r ds' Hv (Nat.le_0_l q) (Forall_nil _)
            (fun _ => NoDup_nil _) H).
  intros [u|m x|y] v Hd E; try discriminate. cbn in E. destruct (Z.eqb_spec m n) as [->|]; [|discriminate].
  injection E as <-. exact Hd.
Qed.

Theorem random_sample_spec n q replace ds r ds' :
  valid_draws ds -> random_sample n q replace ds = Some (r, ds') ->
  length r = q /\ Forall (fun v => (0 <= v < n)%Z) r /\ (replace = false -> NoDup r).
Proof. intros Hv H. destruct (random_sample_all _ _ _ _ _ _ Hv H) as (A & B & C & _). auto. Qed.

Lemma random_sample_suffix n q replace ds r ds' :
  valid_draws ds -> random_sample n q replace ds = Some (r, ds') -> valid_draws ds'.
Proof. intros Hv H. apply (random_sample_all _ _ _ _ _ _ Hv H). Qed.

Lemma random_weighted_sample_all (V : draw -> Prop) w q replace ds r ds' : w <> [] ->
  Forall V ds -> random_weighted_sample w q replace ds = Some (r, ds') ->
  length r = q /\ Forall (fun v => (0 <= v < Z.of_nat (length w))%Z) r /\ Forall V ds'.
Proof.
  intros Hne Hv H. unfold random_weighted_sample in H. rewrite rws_loop_eq in H.
  assert (Hp : forall d v, V d -> pickW w d = Some v -> (0 <= v < Z.of_nat (length w))%Z).
  { intros [u|m x|y] v _ E; try discriminate. injection E as <-. pose proof (weighted_pick_lt w u Hne). lia. }
  destruct (sample_loop_spec _ V _ q replace Hp ds [] r ds' Hv (Nat.le_0_l q) (Forall_nil _)
              (fun _ => NoDup_nil _) H) as (A & B & _ & C). auto.
Qed.

Theorem weighted_selection_count_range w q ds r ds' : w <> [] ->
  random_weighted_sample w q true ds = Some (r, ds') ->
  length r = q /\ Forall (fun v => (0 <= v < Z.of_nat (length w))%Z) r.
Proof.
  intros Hne H. apply (random_weighted_sample_all (fun _ => True)) in H; [tauto|exact Hne|].
  apply Forall_forall. auto.
Qed.

(* the scan has read [pre]; its best so far is position bi of it *)
Lemma argmax_from_app d l : forall pre bi, (bi < length pre)%nat ->
  (argmax_from (nth bi pre d) bi (length pre) l < length (pre ++ l))%nat /\
  Forall (fun x => x <= nth (argmax_from (nth bi pre d) bi (length pre) l) (pre ++ l) d) (nth bi pre d :: l).
Proof.
  induction l as [|x t IH]; intros pre bi Hbi; cbn [argmax_from].
  - rewrite app_nil_r. split; [exact Hbi|]. constructor; [lra|constructor].
  - replace (pre ++ x :: t) with ((pre ++ [x]) ++ t) by now rewrite <- app_assoc.
    destruct (Qltb (nth bi pre d) x) eqn:E.
    + apply Qltb_lt in E. specialize (IH (pre ++ [x]) (length pre)).
      rewrite app_length, nth_middle, Nat.add_1_r in IH. destruct IH as (H1 & H2); [lia|].
      split; [exact H1|]. inversion H2; subst. constructor; [lra|assumption].
    + apply Qltb_ge in E. specialize (IH (pre ++ [x]) bi).
      rewrite app_length, app_nth1, Nat.add_1_r in IH by exact Hbi. destruct IH as (H1 & H2); [lia|].
      split; [exact H1|]. inversion H2; subst. constructor; [assumption|]. constructor; [lra|assumption].
Qed.

Theorem argmax_spec l d : l <> [] ->
  (argmax l < length l)%nat /\ Forall (fun x => x <= nth (argmax l) l d) l.
Proof. destruct l as [|x t]; [congruence|]. intros _. exact (argmax_from_app d t [x] 0%nat Nat.lt_0_1). Qed.

Theorem tournament_one_spec fitness tour ds w ds' :
  valid_draws ds -> (0 < tour)%nat -> tournament_one fitness tour ds = Some (w, ds') ->
  exists t, length t = tour /\ NoDup t /\
    Forall (fun v => (0 <= v < Z.of_nat (length fitness))%Z) t /\
    In w t /\
    Forall (fun j => nth (Z.to_nat j) fitness 0 <= nth (Z.to_nat w) fitness 0) t /\
    valid_draws ds'.
Proof.
  intros Hv Ht H. unfold tournament_one in H. minv H. rename l into t.
  destruct (random_sample_all _ _ _ _ _ _ Hv E) as (Hl & Hr & Hnd & Hv').
  assert (Hne : gatherQ fitness t <> []) by (destruct t; [simpl in Hl; lia|discriminate]).
  destruct (argmax_spec (gatherQ fitness t) 0 Hne) as (Ha & Hb).
  unfold gatherQ in Ha at 2. rewrite map_length in Ha.
  exists t. split; [exact Hl|]. split; [now apply Hnd|]. split; [exact Hr|]. split; [now apply nth_In|].
  split; [|exact Hv'].
  unfold gatherQ in Hb at 2 3. rewrite Forall_map, (nth_map_default _ t _ 0%Z) in Hb by exact Ha. exact Hb.
Qed.

(* the winner is never one of the (tour-1) strictly worst: at least [tour] members are <= it *)
Definition count_le (fitness : list Q) (w : Z) : nat :=
  length (filter (fun j => Qle_bool (nth j fitness 0) (nth (Z.to_nat w) fitness 0)) (seq 0 (length fitness))).

Lemma NoDup_map_to_nat (t : list Z) : NoDup t -> Forall (fun v => (0 <= v)%Z) t -> NoDup (map Z.to_nat t).
Proof.
  induction 1 as [|x t Hx Hnd IH]; intro Hr; simpl; constructor; inversion Hr as [|? ? Hx0 Hr']; subst; auto.
  intro Hin. apply in_map_iff in Hin. destruct Hin as (y & Hy & Hyin).
  rewrite Forall_forall in Hr'. specialize (Hr' y Hyin). assert (y = x) by lia. subst. contradiction.
Qed.

Lemma map_to_nat_range (t : list Z) n : Forall (fun v => (0 <= v < Z.of_nat n)%Z) t ->
  NoDup t -> NoDup (map Z.to_nat t) /\ incl (map Z.to_nat t) (seq 0 n).
Proof.
  intros Hr Hnd. split.
  - apply NoDup_map_to_nat; [exact Hnd|]. eapply Forall_impl; [|exact Hr]. simpl; lia.
  - intros j Hj. apply in_map_iff in Hj. destruct Hj as (z & <- & Hz).
    rewrite Forall_forall in Hr. specialize (Hr z Hz). apply in_seq. lia.
Qed.

Lemma dominated_count fitness (t : list Z) w : NoDup t ->
  Forall (fun v => (0 <= v < Z.of_nat (length fitness))%Z) t ->
  Forall (fun j => nth (Z.to_nat j) fitness 0 <= nth (Z.to_nat w) fitness 0) t ->
  (length t <= count_le fitness w)%nat.
Proof.
  intros Hnd Hr Hle. destruct (map_to_nat_range t _ Hr Hnd) as (Hnd' & Hincl).
  unfold count_le. rewrite <- (map_length Z.to_nat t). apply NoDup_incl_length; [exact Hnd'|].
  intros j Hj. apply filter_In. split; [now apply Hincl|].
  apply in_map_iff in Hj. destruct Hj as (z & <- & Hz). rewrite Forall_forall in Hle. apply Qle_bool_iff. auto.
Qed.

Theorem tournament_full_is_global fitness ds w ds' :
  valid_draws ds -> (0 < length fitness)%nat ->
  tournament_one fitness (length fitness) ds = Some (w, ds') ->
  Forall (fun x => x <= nth (Z.to_nat w) fitness 0) fitness.
Proof.
  intros Hv Hn H.
  destruct (tournament_one_spec _ _ _ _ _ Hv Hn H) as (t & Hl & Hnd & Hr & _ & Hle & _).
  destruct (map_to_nat_range t _ Hr Hnd) as (Hnd' & Hsub).
  assert (Hincl : incl (seq 0 (length fitness)) (map Z.to_nat t)).
  { apply NoDup_length_incl; [exact Hnd'| |exact Hsub]. rewrite map_length, seq_length. lia. }
  apply Forall_forall. intros x Hx. destruct (In_nth _ _ 0 Hx) as (j & Hj & <-).
  assert (Hjin : In j (map Z.to_nat t)) by (apply Hincl, in_seq; lia).
  apply in_map_iff in Hjin. destruct Hjin as (z & <- & Hzin).
  rewrite Forall_forall in Hle. apply Hle; auto.
Qed.

Lemma tournament_selection_all fitness tour : forall quantity ds ws ds',
  valid_draws ds -> (0 < tour)%nat -> tournament_selection fitness tour quantity ds = Some (ws, ds') ->
  length ws = quantity /\
  Forall (fun w => (0 <= w < Z.of_nat (length fitness))%Z /\ (tour <= count_le fitness w)%nat) ws /\
  valid_draws ds'.
Proof.
  induction quantity as [|k IH]; intros ds ws ds' Hv Ht H; cbn [tournament_selection] in H; minv H; [auto|].
  destruct (tournament_one_spec _ _ _ _ _ Hv Ht E) as (t & <- & Hnd & Hr & Hin & Hle & Hv1).
  destruct (IH _ _ _ Hv1 Ht E0) as (Hl & Hall & Hv2).
  split; [simpl; lia|]. split; [|exact Hv2]. constructor; [|exact Hall].
  split; [|now apply dominated_count]. rewrite Forall_forall in Hr. auto.
Qed.

Theorem tournament_selection_spec fitness tour : forall quantity ds ws ds',
  valid_draws ds -> (0 < tour)%nat -> tournament_selection fitness tour quantity ds = Some (ws, ds') ->
  length ws = quantity /\
  Forall (fun w => (0 <= w < Z.of_nat (length fitness))%Z /\ (tour <= count_le fitness w)%nat) ws.
Proof. intros q ds ws ds' Hv Ht H. destruct (tournament_selection_all _ _ _ _ _ _ Hv Ht H) as (A & B & _). auto. Qed.
