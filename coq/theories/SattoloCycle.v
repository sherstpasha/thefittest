(* SattoloCycle.v — the Sattolo shuffle yields a CYCLIC permutation (C11), for every length and every
   outcome of the draws.  Proof idea: the shuffle is  swap(i, j_i), j_i < i,  for i = n-1 .. 1; as a map on
   positions the result is  tau_(n-1) o ( tau_(n-2) o ( ... o tau_1 ) );  a cycle on {0..i-1} composed
   with the transposition (i j), j < i, is a cycle on {0..i}: the edge  x -> j  becomes  x -> i -> j. *)
From TF Require Import Base RandomPrims RandomPrimsProofs2.
Open Scope Q_scope.

Fixpoint iter {A} (f : A -> A) (k : nat) (x : A) : A :=
  match k with O => x | S k' => f (iter f k' x) end.

Lemma iter_plus {A} (f : A -> A) a b x : iter f (a + b) x = iter f a (iter f b x).
Proof. induction a as [|a IH]; cbn; [reflexivity|now rewrite IH]. Qed.

(* pi restricted to {0..m} is one cycle through all of them, and the identity above m *)
Definition cyclic_on (m : nat) (pi : nat -> nat) : Prop :=
  (forall p, (p <= m)%nat -> (pi p <= m)%nat) /\
  (forall p, (m < p)%nat -> pi p = p) /\
  (forall a b, (a <= m)%nat -> (b <= m)%nat -> exists k, iter pi k a = b).

Fixpoint sat_perm (i : nat) (js : list nat) : nat -> nat :=
  match i, js with
  | S i', j :: js' => fun p => transp (S i') j (sat_perm i' js' p)
  | _, _ => fun p => p
  end.

(* position p of the output holds what was at position (sat_perm i js p) of the input *)
Lemma sat_nth {A} (d : A) : forall i js arr p, (i < length arr)%nat -> js_ok i js ->
  nth p (sat d i js arr) d = nth (sat_perm i js p) arr d.
Proof.
  induction i as [|i IH]; intros js arr p Hi Hok; cbn [sat sat_perm].
  - destruct js; reflexivity.
  - destruct js as [|j js]; [destruct Hok|]. destruct Hok as (Hj & Hok).
    rewrite IH by (rewrite ?swap_length; auto; lia).
    apply nth_swap_transp; lia.
Qed.

Lemma sat_perm_step i j js p : sat_perm (S i) (j :: js) p = transp (S i) j (sat_perm i js p).
Proof. reflexivity. Qed.

(* a cycle q on {0..i} followed by the transposition (S i, j), j <= i, is a cycle on {0..S i} *)
Lemma cycle_insert q i j : cyclic_on i q -> (j <= i)%nat -> cyclic_on (S i) (fun p => transp (S i) j (q p)).
Proof.
  intros (Hin & Hfix & Hreach) Hj. set (pi := fun p => transp (S i) j (q p)).
  assert (Hlow : forall p, (p <= i)%nat -> (q p = j -> pi p = S i) /\ (q p <> j -> pi p = q p)).
  { intros p Hp. unfold pi, transp. specialize (Hin p Hp). split; intros Hq.
    - now rewrite Hq, Nat.eqb_refl.
    - apply Nat.eqb_neq in Hq. rewrite Hq. destruct (Nat.eqb_spec (q p) (S i)); [lia|reflexivity]. }
  assert (Hhigh : forall p, (i < p)%nat -> pi p = if (p =? S i)%nat then j else p).
  { intros p Hp. unfold pi, transp. rewrite (Hfix p Hp). destruct (Nat.eqb_spec p j); [lia|reflexivity]. }
  assert (Htop : pi (S i) = j) by (rewrite Hhigh, Nat.eqb_refl; [reflexivity|lia]).
  (* every q-step is simulated by one or two pi-steps *)
  assert (Hiter_in : forall k a, (a <= i)%nat -> (iter q k a <= i)%nat).
  { induction k as [|k IHk]; intros a Ha; cbn; auto. }
  assert (Hsim : forall k a, (a <= i)%nat -> exists k', iter pi k' a = iter q k a).
  { induction k as [|k IHk]; intros a Ha; [exists 0%nat; reflexivity|].
    destruct (IHk a Ha) as (k' & Hk'). cbn [iter]. set (x := iter q k a) in *.
    assert (Hx : (x <= i)%nat) by (apply Hiter_in; auto).
    destruct (Nat.eq_dec (q x) j) as [Hq|Hq].
    - exists (S (S k')). cbn [iter]. rewrite Hk'. rewrite (proj1 (Hlow x Hx) Hq), Htop. auto.
    - exists (S k'). cbn [iter]. rewrite Hk'. apply (proj2 (Hlow x Hx) Hq). }
  assert (Hreach' : forall a b, (a <= i)%nat -> (b <= i)%nat -> exists k, iter pi k a = b).
  { intros a b Ha Hb. destruct (Hreach a b Ha Hb) as (k & Hk). destruct (Hsim k a Ha) as (k' & Hk'). exists k'. congruence. }
  (* a predecessor of j under q *)
  assert (Hpred : exists x, (x <= i)%nat /\ q x = j).
  { destruct (Hreach (q j) j (Hin j Hj) Hj) as ([|k] & Hk).
    - exists j. split; auto.
    - exists (iter q k (q j)). split; [apply Hiter_in; auto|exact Hk]. }
  split; [|split].
  - intros p Hp. destruct (Nat.eq_dec p (S i)) as [->|Hne]; [rewrite Htop; lia|].
    assert (Hp' : (p <= i)%nat) by lia. specialize (Hin p Hp'). destruct (Nat.eq_dec (q p) j) as [Hq|Hq].
    + rewrite (proj1 (Hlow p Hp') Hq). lia.
    + rewrite (proj2 (Hlow p Hp') Hq). lia.
  - intros p Hp. rewrite Hhigh by lia. destruct (Nat.eqb_spec p (S i)); [lia|reflexivity].
  - intros a b Ha Hb.
    destruct (Nat.eq_dec a (S i)) as [->|Hna]; destruct (Nat.eq_dec b (S i)) as [->|Hnb].
    + exists 0%nat. reflexivity.
    + destruct (Hreach' j b Hj ltac:(lia)) as (k & Hk). exists (k + 1)%nat. rewrite iter_plus. cbn [iter]. rewrite Htop. exact Hk.
    + destruct Hpred as (x & Hx & Hqx). destruct (Hreach' a x ltac:(lia) Hx) as (k & Hk).
      exists (S k). cbn [iter]. rewrite Hk. apply (proj1 (Hlow x Hx) Hqx).
    + apply Hreach'; lia.
Qed.

Theorem sat_perm_cyclic : forall i js, js_ok i js -> cyclic_on i (sat_perm i js).
Proof.
  induction i as [|i IH]; intros [|j js] Hok; cbn in Hok; try contradiction.
  - repeat split; auto. intros a b Ha Hb. exists 0%nat. cbn. lia.
  - destruct Hok as (Hj & Hok). exact (cycle_insert _ i j (IH js Hok) Hj).
Qed.

(* the output is the input read through a permutation of the positions that is a
   single cycle through ALL n positions *)
Theorem sattolo_cyclic {A} (d : A) (arr : list A) ds r ds' :
  valid_draws ds -> arr <> [] -> sattolo d arr ds = Some (r, ds') ->
  exists pi, cyclic_on (length arr - 1) pi /\ length r = length arr /\
    forall p, (p < length arr)%nat -> nth p r d = nth (pi p) arr d.
Proof.
  intros Hv Hne H. unfold sattolo in H.
  destruct (sattolo_loop_sat d _ _ _ _ _ Hv H) as (js & Hok & ->).
  exists (sat_perm (length arr - 1) js). assert (Hi : (length arr - 1 < length arr)%nat) by (destruct arr; [congruence|simpl; lia]).
  split; [apply sat_perm_cyclic; auto|]. split; [now apply sat_perm_list|].
  intros p Hp. apply sat_nth; auto.
Qed.

(* consequence: for n >= 2 no element stays in place when the input has no duplicates *)
Theorem sattolo_no_fixed_point {A} (d : A) (arr : list A) ds r ds' p :
  valid_draws ds -> NoDup arr -> (2 <= length arr)%nat -> (p < length arr)%nat ->
  sattolo d arr ds = Some (r, ds') -> nth p r d <> nth p arr d.
Proof.
  intros Hv Hnd Hn Hp H.
  destruct (sattolo_cyclic d arr ds r ds' Hv ltac:(destruct arr; [simpl in Hn; lia|congruence]) H) as (pi & (Hin & Hfix & Hreach) & Hl & Hnth).
  rewrite (Hnth p Hp). intro Heq.
  assert (Hpp : pi p = p).
  { apply (proj1 (NoDup_nth arr d) Hnd); auto. specialize (Hin p ltac:(lia)). lia. }
  (* a fixed point of a cycle through >= 2 positions is impossible: nothing else would be reachable from p *)
  assert (Hstay : forall k, iter pi k p = p) by (induction k as [|k IHk]; cbn; [reflexivity|now rewrite IHk]).
  set (other := if (p =? 0)%nat then 1%nat else 0%nat).
  assert (Ho : (other <= length arr - 1)%nat /\ other <> p).
  { unfold other. destruct (p =? 0)%nat eqn:E; [apply Nat.eqb_eq in E|apply Nat.eqb_neq in E]; lia. }
  destruct (Hreach p other ltac:(lia) (proj1 Ho)) as (k & Hk). rewrite Hstay in Hk. destruct Ho; congruence.
Qed.
