(* NetMLPProofs.v — C13: the MLP builder (BaseMLPEA._defitne_net).
   - the repaired builder yields, for every hidden tuple, exactly the requested architecture
     (mlp_result), with the connection rows as a multiset;
   - hence the boolean architecture check accepts every net of the builder on the family of
     requests mlp_sweep enumerates.                                                             *)
From TF Require Import Base Net NetAlgebra NetProofs NetProofs2 NetOrderProofs.
From Coq Require Import Permutation.
Local Open Scope nat_scope.

(* requested architecture as a predicate on the result *)
Definition mlp_arch_ok (ni no : nat) (hs : list nat) (act : nat) (offset : bool) (oact : nat)
           (r : net) : Prop :=
  n_in r = seq 0 ni /\ n_hid r = mlp_ranges ni hs /\
  n_out r = seq (ni + list_sum hs) no /\
  (forall c, In c (n_con r) <-> In c (mlp_spec_connects ni no hs offset)) /\
  n_nw r = length (n_con r) /\
  (forall v, In v (hidden r) -> alookup v (n_act r) = Some act) /\
  (forall v, In v (n_out r) -> alookup v (n_act r) = Some oact).

(* boolean form of the same *)
Definition mlp_arch_b (ni no : nat) (hs : list nat) (act : nat) (offset : bool) (oact : nat)
           (r : net) : bool :=
  natlist_eqb (n_in r) (seq 0 ni) && natll_eqb (n_hid r) (mlp_ranges ni hs)
  && natlist_eqb (n_out r) (seq (ni + list_sum hs) no)
  && pairlist_eqb (sort_dedup (n_con r)) (sort_dedup (mlp_spec_connects ni no hs offset))
  && (n_nw r =? length (n_con r))
  && forallb (fun v => match alookup v (n_act r) with Some a => a =? act | None => false end) (hidden r)
  && forallb (fun v => match alookup v (n_act r) with Some a => a =? oact | None => false end) (n_out r).

Local Arguments net_op : simpl never.

Lemma list_prod_perm_r {A B} (l : list A) (m m' : list B) :
  Permutation m m' -> Permutation (list_prod l m) (list_prod l m').
Proof.
  intro P. induction l as [|x l IH]; simpl; auto.
  apply Permutation_app; auto. apply Permutation_map. auto.
Qed.
Lemma list_prod_perm_l {A B} (l l' : list A) (m : list B) :
  Permutation l l' -> Permutation (list_prod l m) (list_prod l' m).
Proof.
  induction 1; simpl; auto.
  - apply Permutation_app_head. auto.
  - rewrite !app_assoc. apply Permutation_app_tail. apply Permutation_app_comm.
  - eapply perm_trans; eauto.
Qed.
Lemma list_prod_perm {A B} (l l' : list A) (m m' : list B) :
  Permutation l l' -> Permutation m m' -> Permutation (list_prod l m) (list_prod l' m').
Proof.
  intros P Q. eapply perm_trans; [apply list_prod_perm_l; eauto|apply list_prod_perm_r; auto].
Qed.

Definition spec_partial (ni : nat) (hs : list nat) (offset : bool) : list (nat * nat) :=
  consecutive (seq 0 ni :: mlp_ranges ni hs)
  ++ (if offset then list_prod [ni - 1] (concat (mlp_ranges ni hs)) else []).
Definition prev_layer (ni : nat) (hs : list nat) : list nat := last (seq 0 ni :: mlp_ranges ni hs) [].

Lemma consecutive_cons2 (a b : list nat) t :
  consecutive (a :: b :: t) = list_prod a b ++ consecutive (b :: t).
Proof. reflexivity. Qed.

Lemma mlp_ranges_snoc e hs h :
  mlp_ranges e (hs ++ [h]) = mlp_ranges e hs ++ [seq (e + list_sum hs) h].
Proof.
  revert e. induction hs as [|x t IH]; intro e; simpl.
  - rewrite Nat.add_0_r. reflexivity.
  - rewrite IH, Nat.add_assoc. reflexivity.
Qed.
Lemma concat_mlp_ranges e hs : concat (mlp_ranges e hs) = seq e (list_sum hs).
Proof.
  revert e. induction hs as [|h t IH]; intro e; simpl; auto.
  rewrite IH, <- seq_app. reflexivity.
Qed.
Lemma prev_layer_snoc ni hs h : prev_layer ni (hs ++ [h]) = seq (ni + list_sum hs) h.
Proof. unfold prev_layer. rewrite mlp_ranges_snoc, app_comm_cons. apply last_last. Qed.
Lemma prev_layer_bound ni hs x : In x (prev_layer ni hs) -> x < ni + list_sum hs.
Proof.
  destruct hs as [|h t] using rev_ind.
  - unfold prev_layer. simpl. rewrite in_seq. lia.
  - rewrite prev_layer_snoc, list_sum_app, in_seq. simpl. lia.
Qed.
Lemma consecutive_snoc (ls : list (list nat)) x : ls <> [] ->
  consecutive (ls ++ [x]) = consecutive ls ++ list_prod (last ls []) x.
Proof.
  induction ls as [|a t IH]; intro H; [congruence|].
  destruct t as [|b t].
  - simpl. rewrite app_nil_r. reflexivity.
  - change (last (a :: b :: t) []) with (last (b :: t) []). simpl app.
    rewrite !consecutive_cons2, <- app_assoc. f_equal. apply IH. discriminate.
Qed.

Lemma spec_partial_snoc ni hs h offset :
  Permutation (spec_partial ni (hs ++ [h]) offset)
              (spec_partial ni hs offset
               ++ (if offset then list_prod [ni - 1] (seq (ni + list_sum hs) h) else [])
               ++ list_prod (prev_layer ni hs) (seq (ni + list_sum hs) h)).
Proof.
  unfold spec_partial, prev_layer. rewrite mlp_ranges_snoc, app_comm_cons.
  rewrite consecutive_snoc by discriminate.
  rewrite <- !app_assoc. apply Permutation_app_head.
  destruct offset; [|rewrite app_nil_r; apply Permutation_refl].
  rewrite concat_app. simpl. rewrite !app_nil_r, map_app.
  rewrite Permutation_app_comm, <- app_assoc. apply Permutation_refl.
Qed.
Lemma spec_src_bound ni offset : 1 <= ni -> forall hs h x y,
  In (x, y) (spec_partial ni (hs ++ [h]) offset) -> x < ni + list_sum hs.
Proof.
  intros Hni hs. induction hs as [|h' t IH] using rev_ind; intros h x y H;
    apply (Permutation_in _ (spec_partial_snoc _ _ _ _)) in H; rewrite !in_app_iff in H;
    destruct H as [H|[H|H]].
  - unfold spec_partial in H. simpl in H. destruct offset; simpl in H; tauto.
  - destruct offset; [|destruct H]. apply in_prod_iff in H. simpl in H. lia.
  - apply in_prod_iff in H. apply prev_layer_bound. tauto.
  - apply IH in H. rewrite list_sum_app. lia.
  - destruct offset; [|destruct H]. apply in_prod_iff in H. simpl in H. lia.
  - apply in_prod_iff in H. apply prev_layer_bound. tauto.
Qed.

Lemma NoDup_concat_each (hs : list (list nat)) : NoDup (concat hs) -> Forall (@NoDup nat) hs.
Proof.
  induction hs as [|h t IH]; simpl; intro H; constructor; apply NoDup_app_elim in H; tauto.
Qed.
Lemma gt_from_NoDup a : NoDup (n_in a) -> NoDup (hidden a) -> NoDup (gt_from a).
Proof.
  intros H1 H2. apply NoDup_diff, NoDup_union; auto. apply NoDup_assemble, NoDup_concat_each, H2.
Qed.
Lemma gt_to_perm b T :
  (forall c, In c (n_con b) -> In (fst c) (n_in b)) ->
  NoDup (hidden b ++ n_out b) -> NoDup T ->
  (forall y, In y (hidden b) \/ In y (n_out b) <-> In y T) ->
  Permutation (gt_to b) T.
Proof.
  intros Hs ND NT HT. apply NoDup_app_elim in ND. destruct ND as [N1 [N2 _]].
  apply NoDup_Permutation; auto.
  - apply NoDup_diff, NoDup_union; auto. apply NoDup_assemble, NoDup_concat_each, N1.
  - intro y. unfold gt_to. rewrite diff_In, union_In, assemble_In. fold (hidden b).
    rewrite HT. split; [tauto|]. intro H. split; auto.
    intro Hc. apply in_map_iff in Hc. destruct Hc as [c [_ Hc]]. apply filter_In in Hc.
    destruct Hc as [Hc Hn]. apply negb_true_iff, mem_false in Hn. apply Hn, Hs, Hc.
Qed.

(* a layer unit: hidden block or output block over the id list T *)
Definition is_unit (u : net) (T : list nat) : Prop :=
  n_in u = [] /\ n_con u = [] /\ (forall y, In y (hidden u) \/ In y (n_out u) <-> In y T).

Lemma unit_hid_is_unit T a : is_unit (unit_hid T a) T.
Proof. repeat split; auto; unfold hidden; simpl; rewrite ?app_nil_r; tauto. Qed.
Lemma unit_out_is_unit T a : is_unit (unit_out T a) T.
Proof. repeat split; auto; unfold hidden; simpl; tauto. Qed.

Lemma amerge_nil_l b : amerge [] b = b.
Proof. reflexivity. Qed.

(* Net(inputs={bias}) > unit   or just   unit *)
Lemma mlp_layer_spec fixed offset ni u T :
  1 <= ni -> is_unit u T -> LInv ni u -> NoDup T ->
  exists ln, mlp_layer fixed offset (ni - 1) u = Some ln /\ LInv ni ln /\
    n_in ln = (if offset then [ni - 1] else []) /\ n_hid ln = n_hid u /\ n_out ln = n_out u /\
    Permutation (n_con ln) (if offset then list_prod [ni - 1] T else []) /\
    Permutation (gt_to ln) T /\ n_act ln = n_act u.
Proof.
  intros Hni [U1 [U2 U3]] Iu NT.
  assert (PT0 : Permutation (gt_to u) T)
    by (apply gt_to_perm; auto; [rewrite U2; intros c []|apply (li_ndh _ _ Iu)]).
  unfold mlp_layer. destruct offset.
  - rewrite net_op_gt_plain by (left; rewrite U1; reflexivity).
    set (ln := gt_plain (unit_in [ni - 1]) u).
    assert (Il : LInv ni ln).
    { apply gt_plain_LInv; auto.
      apply unit_in_LInv; [repeat constructor; auto|]. intros v [<-|[]]. lia. }
    assert (Ei : n_in ln = [ni - 1]) by (unfold ln; rewrite gt_plain_in, U1; reflexivity).
    assert (Eo : n_out ln = n_out u) by (unfold ln; rewrite gt_plain_out; apply union_nil_l).
    assert (Eh : n_hid ln = n_hid u) by apply gt_plain_hid.
    assert (PT : Permutation (gt_to ln) T).
    { apply gt_to_perm; auto; [|apply (li_ndh _ _ Il)|unfold hidden; rewrite Eh, Eo; apply U3].
      intros [x z] Hc. unfold ln in Hc. rewrite gt_plain_con, U2 in Hc. apply gt_new_In in Hc.
      rewrite Ei. apply Hc. }
    exists ln. split; auto. split; auto. split; auto. split; auto.
    split; auto. split; [|split; auto; apply gt_plain_act].
    unfold ln. rewrite gt_plain_con, U2. unfold gt_new. rewrite get_connect_prod.
    apply list_prod_perm; auto.
  - exists u. rewrite U2. do 6 (split; auto).
Qed.

Record MInv (ni : nat) (offset : bool) (act : nat) (hs : list nat) (nt : net) : Prop := {
  m_inv  : LInv ni nt;
  m_in   : n_in nt = seq 0 ni;
  m_hid  : n_hid nt = mlp_ranges ni hs;
  m_out  : n_out nt = [];
  m_con  : Permutation (n_con nt) (spec_partial ni hs offset);
  m_from : Permutation (gt_from nt) (prev_layer ni hs);
  m_open : prev_layer ni hs <> [];
  m_into : forall v, In v (hidden nt) -> exists a, In (a, v) (n_con nt);
  m_act  : forall v, In v (hidden nt) -> alookup v (n_act nt) = Some act
}.

Lemma MInv_hidden ni offset act hs nt v :
  MInv ni offset act hs nt -> In v (hidden nt) -> ni <= v < ni + list_sum hs.
Proof.
  intros M H. unfold hidden in H. rewrite (m_hid _ _ _ _ _ M), concat_mlp_ranges, in_seq in H. exact H.
Qed.

(* r = nt > layer(u), for a unit u over the k ids behind the layers hs *)
Record LayerAdded (ni : nat) (offset : bool) (hs : list nat) (k : nat) (nt u r : net) : Prop := {
  la_inv  : LInv ni r;
  la_in   : n_in r = seq 0 ni;
  la_hid  : n_hid r = mlp_ranges ni hs ++ n_hid u;
  la_out  : n_out r = n_out u;
  la_con  : Permutation (n_con r) (spec_partial ni (hs ++ [k]) offset);
  la_act  : n_act r = amerge (n_act nt) (n_act u);
  la_from : forall v, In v (n_in nt) \/ In v (hidden nt) -> exists z, In (v, z) (n_con r);
  la_into : forall v, In v (seq (ni + list_sum hs) k) -> exists a, In (a, v) (n_con r)
}.

(* nt > layer(u)  for a hidden or an output unit u over the next ids T: the general branch of
   __gt__ is taken, every open source of nt is connected to every node of T *)
Lemma mlp_add_layer fixed ni offset act hs nt u k :
  1 <= ni -> MInv ni offset act hs nt -> 1 <= k ->
  let T := seq (ni + list_sum hs) k in
  is_unit u T -> LInv ni u ->
  n_hid u <> [] \/ offset = false \/ (fixed = true /\ n_out u <> []) ->
  exists ln, mlp_layer fixed offset (ni - 1) u = Some ln /\
    net_op fixed OPFUEL true nt ln = Some (gt_plain nt ln) /\
    LayerAdded ni offset hs k nt u (gt_plain nt ln).
Proof.
  intros Hni M Hk1 T U Iu Hk.
  assert (NT : NoDup T) by apply seq_NoDup.
  destruct (mlp_layer_spec fixed offset ni u T Hni U Iu NT) as [ln [El [Il [L1 [L2 [L3 [PL [PT EA]]]]]]]].
  exists ln. split; auto. destruct U as [U1 [U2 U3]].
  assert (Hy0 : exists y, In y (gt_to ln)).
  { exists (ni + list_sum hs). apply (Permutation_in _ (Permutation_sym PT)), in_seq. lia. }
  assert (Hx0 : exists x, In x (gt_from nt)).
  { pose proof (m_open _ _ _ _ _ M) as Ho. destruct (prev_layer ni hs) as [|x l] eqn:E; [congruence|].
    exists x. apply (Permutation_in _ (Permutation_sym (m_from _ _ _ _ _ M))). rewrite E. simpl; auto. }
  split; [|constructor].
  - apply net_op_gt_plain. destruct Hk as [Hk|[Hk|[Hf Hk]]].
    + left. rewrite L2. destruct (n_hid u); [congruence|]. apply andb_false_r.
    + left. rewrite L1, Hk. reflexivity.
    + right. rewrite (m_in _ _ _ _ _ M), L3. split; auto. destruct ni; [lia|reflexivity].
  - apply gt_plain_LInv; auto; try apply M. intros v Hv Hw.
    apply (MInv_hidden _ _ _ _ _ _ M) in Hv.
    unfold hidden in Hw. rewrite L2, L3, in_app_iff in Hw. apply U3 in Hw.
    apply in_seq in Hw. lia.
  - rewrite gt_plain_in, union_absorb; [apply M|].
    rewrite L1, (m_in _ _ _ _ _ M). destruct offset; intros x Hx; [destruct Hx as [<-|[]]; apply in_seq; lia|destruct Hx].
  - rewrite gt_plain_hid, L2, (m_hid _ _ _ _ _ M). reflexivity.
  - rewrite gt_plain_out, L3, (m_out _ _ _ _ _ M). apply union_nil_l.
  - rewrite gt_plain_con, spec_partial_snoc. fold T.
    apply Permutation_app; [apply M|]. apply Permutation_app; auto.
    unfold gt_new. rewrite get_connect_prod. apply list_prod_perm; auto. apply M.
  - rewrite gt_plain_act, EA. reflexivity.
  - intros v Hv. destruct Hy0 as [y Hy]. apply (gt_plain_outgoing nt ln y v); auto.
  - intros v Hv. destruct Hx0 as [x Hx]. exists x. rewrite gt_plain_con, !in_app_iff, gt_new_In.
    right; right. split; auto. apply (Permutation_in _ (Permutation_sym PT)). auto.
Qed.

Lemma mlp_hidden_step fixed ni offset act hs nt h :
  1 <= ni -> 1 <= h -> MInv ni offset act hs nt ->
  exists ln nt', mlp_layer fixed offset (ni - 1) (unit_hid (seq (ni + list_sum hs) h) act) = Some ln /\
    net_op fixed OPFUEL true nt ln = Some nt' /\ MInv ni offset act (hs ++ [h]) nt'.
Proof.
  intros Hni Hh M. set (e := ni + list_sum hs). set (T := seq e h).
  assert (HT : forall v, In v T <-> e <= v < e + h) by (intro v; apply in_seq).
  destruct (mlp_add_layer fixed ni offset act hs nt (unit_hid T act) h Hni M Hh)
    as [ln [El [Eop [Ir R1 R2 R3 Pc Ra Hout Hin]]]].
  { apply unit_hid_is_unit. }
  { apply unit_hid_LInv; [apply seq_NoDup|]. intros v Hv. apply HT in Hv. unfold e in Hv. lia. }
  { left. discriminate. }
  simpl in R2, R3, Ra.
  exists ln, (gt_plain nt ln). split; auto. split; auto.
  assert (Hhid : forall v, In v (hidden (gt_plain nt ln)) <-> In v (hidden nt) \/ In v T).
  { intro v. unfold hidden. rewrite R2, (m_hid _ _ _ _ _ M), concat_app, in_app_iff. simpl.
    rewrite app_nil_r. reflexivity. }
  constructor; auto.
  - rewrite R2, mlp_ranges_snoc. reflexivity.
  - (* open sources of the new net = the new layer *)
    rewrite prev_layer_snoc. apply NoDup_Permutation; [|apply seq_NoDup|].
    { pose proof (li_ndh _ _ Ir) as ND. apply NoDup_app_elim in ND.
      apply gt_from_NoDup; [apply Ir|tauto]. }
    intro v. fold e. fold T. rewrite gt_from_In, Hhid, In_fst. split.
    + intros [[Hv|[Hv|Hv]] Hns]; auto; destruct Hns; apply Hout; auto.
      left. rewrite (m_in _ _ _ _ _ M), <- R1. auto.
    + intro Hv. split; auto. intros [z Hc]. apply (Permutation_in _ Pc), spec_src_bound in Hc; auto.
      apply HT in Hv. unfold e in Hv. lia.
  - rewrite prev_layer_snoc. destruct h; [lia|discriminate].
  - intros v Hv. apply Hhid in Hv. destruct Hv as [Hv|Hv]; auto.
    destruct (m_into _ _ _ _ _ M v Hv) as [a Ha]. exists a. rewrite gt_plain_con. apply in_app_iff. auto.
  - intros v Hv. rewrite Ra, alookup_amerge, unit_keys. apply Hhid in Hv. destruct (mem v T) eqn:E.
    + apply mem_In in E. apply alookup_unit; auto.
    + apply mem_false in E. destruct Hv as [Hv|Hv]; [apply M; auto|tauto].
Qed.

Lemma MInv_init ni offset act : 1 <= ni -> MInv ni offset act [] (unit_in (seq 0 ni)).
Proof.
  intro Hni. constructor; simpl; auto.
  - apply unit_in_LInv; [apply seq_NoDup|]. intros v Hv. apply in_seq in Hv. lia.
  - unfold spec_partial. simpl. destruct offset; apply Permutation_refl.
  - unfold gt_from, prev_layer. simpl. rewrite union_nil_r. apply NoDup_Permutation.
    + apply NoDup_diff, seq_NoDup. + apply seq_NoDup. + intro v. rewrite diff_In. simpl. tauto.
  - unfold prev_layer. destruct ni; [lia|discriminate].
  - intros v [].
  - intros v [].
Qed.

Lemma mlp_hidden_spec fixed ni offset act : 1 <= ni -> forall hs done nt,
  Forall (fun h => 1 <= h) hs -> MInv ni offset act done nt ->
  exists nt', mlp_hidden fixed offset act (ni - 1) hs nt (ni + list_sum done)
              = Some (nt', ni + list_sum (done ++ hs)) /\
              MInv ni offset act (done ++ hs) nt'.
Proof.
  intros Hni. induction hs as [|h t IH]; intros done nt Hf M; simpl.
  - rewrite app_nil_r. eauto.
  - inversion Hf; subst.
    destruct (mlp_hidden_step fixed ni offset act done nt h Hni H1 M) as [ln [nt' [E1 [E2 M']]]].
    rewrite E1, E2.
    destruct (IH (done ++ [h]) nt' H2 M') as [nt2 [E3 M2]].
    rewrite list_sum_app in E3. simpl in E3. rewrite Nat.add_0_r, Nat.add_assoc in E3.
    rewrite <- app_assoc in E3, M2. simpl in E3, M2. eauto.
Qed.

(* the finished net of the repaired builder (fixed = true): layers, rows as a multiset, the
   layering invariant, an incoming row for every non-input node, activations *)
Theorem mlp_result ni no hs act offset oact :
  1 <= ni -> 1 <= no -> Forall (fun h => 1 <= h) hs ->
  exists r, define_net true ni no hs act offset oact = Some r /\
    n_in r = seq 0 ni /\ n_hid r = mlp_ranges ni hs /\ n_out r = seq (ni + list_sum hs) no /\
    Permutation (n_con r) (mlp_spec_connects ni no hs offset) /\
    LInv ni r /\
    (forall v, In v (hidden r) \/ In v (n_out r) -> exists a, In (a, v) (n_con r)) /\
    (forall v, In v (hidden r) -> alookup v (n_act r) = Some act) /\
    (forall v, In v (n_out r) -> alookup v (n_act r) = Some oact).
Proof.
  intros Hni Hno Hf. unfold define_net.
  destruct (mlp_hidden_spec true ni offset act Hni hs [] (unit_in (seq 0 ni)) Hf (MInv_init ni offset act Hni))
    as [nt [E M]].
  simpl in E, M. rewrite Nat.add_0_r in E. rewrite E.
  set (e := ni + list_sum hs). set (T := seq e no).
  assert (HT : forall v, In v T <-> e <= v < e + no) by (intro v; apply in_seq).
  destruct (mlp_add_layer true ni offset act hs nt (unit_out T oact) no Hni M Hno)
    as [ln [El [Eop [Ir R1 R2 R3 Pc Ra _ Hin]]]].
  { apply unit_out_is_unit. }
  { apply unit_out_LInv; [apply seq_NoDup|]. intros v Hv. apply HT in Hv. unfold e in Hv. lia. }
  { right; right. split; auto. unfold T. destruct no; [lia|discriminate]. }
  simpl in R2, R3, Ra. rewrite app_nil_r in R2.
  rewrite El, Eop. eexists. split; [reflexivity|].
  assert (Hhid : hidden (gt_plain nt ln) = hidden nt).
  { unfold hidden. rewrite R2, (m_hid _ _ _ _ _ M). reflexivity. }
  rewrite Hhid, R3. do 5 (split; [auto|]). split; [|split].
  - intros v [Hv|Hv]; auto.
    destruct (m_into _ _ _ _ _ M v Hv) as [a Ha]. exists a. rewrite gt_plain_con. apply in_app_iff. auto.
  - intros v Hv. rewrite Ra, alookup_amerge, unit_keys.
    rewrite (proj2 (mem_false v T)); [apply M; auto|].
    apply (MInv_hidden _ _ _ _ _ _ M) in Hv. rewrite HT. unfold e. lia.
  - intros v Hv. rewrite Ra, alookup_amerge, unit_keys, (proj2 (mem_In v T) Hv).
    apply alookup_unit; auto.
Qed.

Theorem mlp_architecture ni no hs act offset oact :
  1 <= ni -> 1 <= no -> Forall (fun h => 1 <= h) hs ->
  exists r, define_net true ni no hs act offset oact = Some r /\
            mlp_arch_ok ni no hs act offset oact r.
Proof.
  intros Hni Hno Hf.
  destruct (mlp_result ni no hs act offset oact Hni Hno Hf) as [r [E [A1 [A2 [A3 [P [I [_ [A6 A7]]]]]]]]].
  exists r. split; auto. repeat split; auto; try apply (Permutation_in _ P).
  - apply (Permutation_in _ (Permutation_sym P)).
  - apply I.
Qed.

(* all hidden tuples with <= 3 layers of sizes 1..3 *)
Definition sizes3 : list nat := [1; 2; 3].
Definition tuples_upto3 : list (list nat) :=
  [[]] ++ map (fun a => [a]) sizes3
  ++ map (fun p => [fst p; snd p]) (list_prod sizes3 sizes3)
  ++ map (fun p => [fst (fst p); snd (fst p); snd p]) (list_prod (list_prod sizes3 sizes3) sizes3).

Definition mlp_sweep : bool :=
  forallb (fun hs =>
    forallb (fun ni =>
      forallb (fun no =>
        forallb (fun offset =>
          match define_net true ni no hs 1 offset 5 with
          | Some r => mlp_arch_b ni no hs 1 offset 5 r
          | None => false
          end) [true; false]) [1; 2; 3]) [1; 2; 3; 4]) tuples_upto3.

Lemma sweep_all (chk : list nat -> nat -> nat -> bool -> bool) :
  (forall hs ni no offset, Forall (fun h => 1 <= h) hs -> 1 <= ni -> 1 <= no ->
                           chk hs ni no offset = true) ->
  forallb (fun hs => forallb (fun ni => forallb (fun no => forallb (fun offset =>
    chk hs ni no offset) [true; false]) [1; 2; 3]) [1; 2; 3; 4]) tuples_upto3 = true.
Proof.
  intro H. assert (Hs : Forall (Forall (fun h => 1 <= h)) tuples_upto3) by (repeat constructor).
  rewrite Forall_forall in Hs.
  apply forallb_forall. intros hs Hhs. apply forallb_forall. intros ni Hni.
  apply forallb_forall. intros no Hno. apply forallb_forall. intros offset _.
  apply H; auto; simpl in Hni, Hno; lia.
Qed.

Lemma natll_eqb_refl a : natll_eqb a a = true.
Proof.
  induction a as [|x a IH]; simpl; auto. rewrite IH, (proj2 (natlist_eqb_eq x x)); auto.
Qed.
Lemma pairlist_eqb_refl a : pairlist_eqb a a = true.
Proof.
  induction a as [|x a IH]; simpl; auto. rewrite IH, (proj2 (pair_eqb_eq x x)); auto.
Qed.
Lemma mlp_arch_b_complete ni no hs act offset oact r :
  mlp_arch_ok ni no hs act offset oact r -> mlp_arch_b ni no hs act offset oact r = true.
Proof.
  intros [A1 [A2 [A3 [A4 [A5 [A6 A7]]]]]]. unfold mlp_arch_b.
  rewrite A1, A2, A3, (sort_dedup_ext _ _ A4), <- A5, natll_eqb_refl, pairlist_eqb_refl, Nat.eqb_refl.
  rewrite !(proj2 (natlist_eqb_eq _ _) eq_refl). simpl.
  apply andb_true_iff. split; apply forallb_forall; intros v Hv.
  - rewrite A6, Nat.eqb_refl; auto.
  - rewrite A3 in A7. rewrite A7, Nat.eqb_refl; auto.
Qed.

Theorem mlp_architecture_sweep_3layers_size3_in4_out3 : mlp_sweep = true.
Proof.
  apply sweep_all. intros hs ni no offset Hf Hni Hno.
  destruct (mlp_architecture ni no hs 1 offset 5 Hni Hno Hf) as [r [E A]]. rewrite E.
  apply mlp_arch_b_complete, A.
Qed.

(* multiplicities: the only duplicated rows are bias -> first layer (the bias column is also an
   input column): NetMLPProofs2.mlp_duplicates; mlp_dups_sweep is the boolean form swept over the
   same bounded family of requests *)
Definition count_pair (c : nat * nat) (l : list (nat * nat)) : nat :=
  length (filter (pair_eqb c) l).
Definition mlp_dups_b (ni no : nat) (hs : list nat) (offset : bool) (r : net) : bool :=
  let first := hd [] (mlp_ranges ni (hs ++ [no])) in
  forallb (fun c =>
    count_pair c (n_con r) =?
      (if offset && (fst c =? ni - 1) && mem (snd c) first then 2 else 1)) (n_con r).
Definition mlp_dups_sweep : bool :=
  forallb (fun hs =>
    forallb (fun ni =>
      forallb (fun no =>
        forallb (fun offset =>
          match define_net true ni no hs 1 offset 5 with
          | Some r => mlp_dups_b ni no hs offset r
          | None => false
          end) [true; false]) [1; 2; 3]) [1; 2; 3; 4]) tuples_upto3.
