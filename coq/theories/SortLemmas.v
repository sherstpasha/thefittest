(* SortLemmas.v — strongly sorted lists, and the two insertion sorts of which the sorts of the
   models (Net.v, NetOrder.v, Py.v) are instances. *)
From TF Require Import Base.
From Coq Require Import Permutation Sorted.
Local Open Scope nat_scope.

Section Sorted.
  Context {A : Type} (R : A -> A -> Prop).

  Lemma sorted_NoDup l : (forall x, ~ R x x) -> StronglySorted R l -> NoDup l.
  Proof.
    intros Hirr H. induction H as [|a l _ IH HF]; constructor; auto.
    intro Hc. rewrite Forall_forall in HF. apply (Hirr a). auto.
  Qed.
  Lemma sorted_weaken (R' : A -> A -> Prop) l :
    (forall x y, R x y -> R' x y) -> StronglySorted R l -> StronglySorted R' l.
  Proof.
    intros HR H. induction H as [|a l _ IH HF]; constructor; auto.
    eapply Forall_impl; [|exact HF]. apply HR.
  Qed.
  Lemma sorted_filter (f : A -> bool) l : StronglySorted R l -> StronglySorted R (filter f l).
  Proof.
    induction 1 as [|a l _ IH HF]; simpl. constructor. destruct (f a); auto. constructor; auto.
    apply Forall_forall. intros x Hx. apply filter_In in Hx. rewrite Forall_forall in HF. apply HF. tauto.
  Qed.
  Lemma sorted_map {B} (f : B -> A) l :
    StronglySorted (fun x y => R (f x) (f y)) l -> StronglySorted R (map f l).
  Proof.
    induction 1 as [|a l _ IH HF]; simpl; constructor; auto.
    apply Forall_forall. intros y Hy. apply in_map_iff in Hy. destruct Hy as [x [<- Hx]].
    rewrite Forall_forall in HF. auto.
  Qed.

  Lemma sorted_perm_eq l1 : (forall x y, R x y -> R y x -> x = y) -> forall l2,
    StronglySorted R l1 -> StronglySorted R l2 -> Permutation l1 l2 -> l1 = l2.
  Proof.
    intro Hanti. induction l1 as [|a l1 IH]; intros l2 H1 H2 P.
    - apply Permutation_nil in P. auto.
    - destruct l2 as [|b l2]; [apply Permutation_sym, Permutation_nil in P; discriminate|].
      inversion H1; subst. inversion H2; subst. rewrite Forall_forall in H4, H6.
      assert (a = b).
      { assert (Ha : In a (b :: l2)) by (eapply Permutation_in; [exact P|simpl; auto]).
        assert (Hb : In b (a :: l1)) by (eapply Permutation_in; [symmetry; exact P|simpl; auto]).
        destruct Ha as [Ha|Ha]; auto. destruct Hb as [Hb|Hb]; auto. }
      subst b. f_equal. apply IH; auto. eapply Permutation_cons_inv; eauto.
  Qed.
  Lemma sorted_ext l1 l2 : (forall x, ~ R x x) -> (forall x y, R x y -> R y x -> False) ->
    StronglySorted R l1 -> StronglySorted R l2 -> (forall x, In x l1 <-> In x l2) -> l1 = l2.
  Proof.
    intros Hirr Hasym H1 H2 HE. apply sorted_perm_eq; auto.
    - intros x y Hxy Hyx. destruct (Hasym x y Hxy Hyx).
    - apply NoDup_Permutation; auto; apply sorted_NoDup; auto.
  Qed.
End Sorted.

Section Insertion.
  Context {A : Type} (R : A -> A -> Prop).
  Hypothesis R_trans : forall x y z, R x y -> R y z -> R x z.

  (* stable insertion, duplicates kept: ins_nat, ins_src, insertZ *)
  Variable leb : A -> A -> bool.
  Fixpoint ins_by (x : A) (l : list A) : list A :=
    match l with
    | [] => [x]
    | y :: t => if leb x y then x :: l else y :: ins_by x t
    end.
  Lemma ins_by_perm x l : Permutation (ins_by x l) (x :: l).
  Proof.
    induction l as [|h t IH]; simpl; auto. destruct (leb x h); auto.
    rewrite IH. apply perm_swap.
  Qed.
  Lemma sort_by_perm l : Permutation (fold_right ins_by [] l) l.
  Proof. induction l as [|h t IH]; simpl; auto. rewrite ins_by_perm. auto. Qed.
  Lemma sort_by_In l y : In y (fold_right ins_by [] l) <-> In y l.
  Proof. split; apply Permutation_in; [|symmetry]; apply sort_by_perm. Qed.

  Hypothesis leb_true : forall x y, leb x y = true -> R x y.
  Hypothesis leb_false : forall x y, leb x y = false -> R y x.
  Lemma ins_by_sorted x l : StronglySorted R l -> StronglySorted R (ins_by x l).
  Proof.
    induction l as [|h t IH]; simpl; intro H.
    - repeat constructor.
    - inversion H; subst. destruct (leb x h) eqn:E.
      + constructor; auto. constructor; auto.
        eapply Forall_impl; [|exact H3]. intros a. apply R_trans; auto.
      + constructor; auto. eapply Permutation_Forall; [symmetry; apply ins_by_perm|]. auto.
  Qed.
  Lemma sort_by_sorted l : StronglySorted R (fold_right ins_by [] l).
  Proof. induction l; simpl. constructor. apply ins_by_sorted; auto. Qed.

  (* insertion that drops an element already present: ins_uniq, ins_u *)
  Variables eqb ltb : A -> A -> bool.
  Fixpoint ins_dedup (x : A) (l : list A) : list A :=
    match l with
    | [] => [x]
    | y :: t => if eqb x y then l else if ltb x y then x :: l else y :: ins_dedup x t
    end.
  Hypothesis eqb_eq : forall x y, eqb x y = true -> x = y.
  Hypothesis ltb_true : forall x y, ltb x y = true -> R x y.
  Hypothesis ltb_false : forall x y, eqb x y = false -> ltb x y = false -> R y x.
  Lemma ins_dedup_In x l y : In y (ins_dedup x l) <-> In y (x :: l).
  Proof using eqb_eq.
    induction l as [|h t IH]; simpl; [tauto|].
    destruct (eqb x h) eqn:E.
    - apply eqb_eq in E. subst. simpl. tauto.
    - destruct (ltb x h); simpl; rewrite ?IH; simpl; tauto.
  Qed.
  Lemma sort_dedup_by_In l y : In y (fold_right ins_dedup [] l) <-> In y l.
  Proof using eqb_eq.
    induction l as [|h t IH]; simpl; [tauto|]. rewrite ins_dedup_In. simpl. rewrite IH. tauto.
  Qed.
  Lemma ins_dedup_sorted x l : StronglySorted R l -> StronglySorted R (ins_dedup x l).
  Proof.
    induction l as [|h t IH]; simpl; intro H.
    - repeat constructor.
    - inversion H; subst. destruct (eqb x h) eqn:E; auto. destruct (ltb x h) eqn:E2.
      + constructor; auto. constructor; auto.
        eapply Forall_impl; [|exact H3]. intros a. apply R_trans; auto.
      + constructor; auto. apply Forall_forall. intros y Hy. apply ins_dedup_In in Hy.
        destruct Hy as [<-|Hy]; auto. rewrite Forall_forall in H3. auto.
  Qed.
  Lemma sort_dedup_by_sorted l : StronglySorted R (fold_right ins_dedup [] l).
  Proof. induction l; simpl. constructor. apply ins_dedup_sorted; auto. Qed.
  Lemma sort_dedup_by_length l : length (fold_right ins_dedup [] l) <= length l.
  Proof.
    induction l as [|x l IH]; simpl; auto.
    enough (forall m, length (ins_dedup x m) <= S (length m)) as H by (rewrite H; lia).
    induction m as [|h t IHm]; simpl; auto.
    destruct (eqb x h); simpl; auto. destruct (ltb x h); simpl; lia.
  Qed.
End Insertion.
