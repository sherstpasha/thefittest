(* NetMLPProofs2.v — C13/C12, consequences of NetMLPProofs.mlp_result for the repaired builder:
   - the only duplicated connection rows are bias -> first layer, with multiplicity exactly 2
     (C13_mlp_duplicates);
   - every net built by define_net satisfies the premises of C12_forward_is_ref: Layered,
     all softmax nodes share one sorted source tuple, ids inside the node buffer (C12_mlp_premises). *)
From TF Require Import Base Net NetAlgebra NetProofs NetOrderProofs NetMLPProofs NetForwardProofs2.
From Coq Require Import Permutation.
Local Open Scope nat_scope.

Lemma NoDup_list_prod {A B} (l : list A) (m : list B) :
  NoDup l -> NoDup m -> NoDup (list_prod l m).
Proof.
  intros Hl Hm. induction Hl as [|x l Hx Hl IH]; simpl. constructor.
  apply NoDup_app_intro; auto.
  - apply FinFun.Injective_map_NoDup; auto. intros a b E. inversion E. auto.
  - intros [a b] H1 H2. apply in_map_iff in H1. destruct H1 as [b' [E _]]. inversion E; subst.
    apply in_prod_iff in H2. tauto.
Qed.
Lemma count_pair_perm c l l' : Permutation l l' -> count_pair c l = count_pair c l'.
Proof. intro P. apply Permutation_length, Permutation_filter, P. Qed.
Lemma count_pair_app c l l' : count_pair c (l ++ l') = count_pair c l + count_pair c l'.
Proof. unfold count_pair. rewrite filter_app, app_length. auto. Qed.
Lemma count_pair_nodup c l : NoDup l -> count_pair c l = if existsb (pair_eqb c) l then 1 else 0.
Proof.
  unfold count_pair. induction 1 as [|h t Hh ND IH]; simpl; auto.
  destruct (pair_eqb c h) eqn:E; simpl; auto.
  apply pair_eqb_eq in E. subst h. rewrite IH.
  destruct (existsb (pair_eqb c) t) eqn:Ex; auto. apply existsb_pair_In in Ex. tauto.
Qed.

Lemma mlp_ranges_length e hs : length (mlp_ranges e hs) = length hs.
Proof. revert e. induction hs; intro e; simpl; auto. Qed.
Lemma consecutive_In (ls : list (list nat)) x y :
  In (x, y) (consecutive ls) -> In x (concat ls) /\ In y (concat (tl ls)).
Proof.
  induction ls as [|a t IH]; intro H; [destruct H|].
  destruct t as [|b t]; [destruct H|].
  rewrite consecutive_cons2 in H. apply in_app_iff in H. simpl. rewrite !in_app_iff. destruct H as [H|H].
  - apply in_prod_iff in H. tauto.
  - apply IH in H. simpl in H. rewrite in_app_iff in H. tauto.
Qed.
Lemma cons_NoDup hs : forall a e, NoDup a -> (forall x, In x a -> x < e) ->
  NoDup (consecutive (a :: mlp_ranges e hs)).
Proof.
  induction hs as [|h t IH]; intros a e Na Ha; simpl mlp_ranges.
  - simpl. constructor.
  - rewrite consecutive_cons2. apply NoDup_app_intro.
    + apply NoDup_list_prod; auto. apply seq_NoDup.
    + apply IH. apply seq_NoDup. intros x Hx. apply in_seq in Hx. lia.
    + intros [x y] H1 H2. apply in_prod_iff in H1. destruct H1 as [_ H1]. apply in_seq in H1.
      apply consecutive_In in H2. destruct H2 as [_ H2]. simpl in H2.
      rewrite concat_mlp_ranges in H2. apply in_seq in H2. lia.
Qed.
Lemma cons_first hs a e x y : (forall z, In z a -> z < e) -> x < e ->
  (In (x, y) (consecutive (a :: mlp_ranges e hs)) <-> In x a /\ In y (hd [] (mlp_ranges e hs))).
Proof.
  intros Ha Hx. destruct hs as [|h t]; [simpl; tauto|]. simpl mlp_ranges.
  rewrite consecutive_cons2, in_app_iff, in_prod_iff. simpl hd. split; [|tauto].
  intros [H|H]; auto. exfalso. apply consecutive_In in H. destruct H as [H _]. simpl in H.
  rewrite concat_mlp_ranges, <- seq_app, in_seq in H. lia.
Qed.

Theorem mlp_duplicates ni no hs act offset oact :
  1 <= ni -> 1 <= no -> Forall (fun h => 1 <= h) hs ->
  exists r, define_net true ni no hs act offset oact = Some r /\
    Permutation (n_con r) (mlp_spec_connects ni no hs offset) /\
    forall c, count_pair c (n_con r) =
      if offset && (fst c =? ni - 1) && mem (snd c) (hd [] (mlp_ranges ni (hs ++ [no]))) then 2
      else if existsb (pair_eqb c) (mlp_spec_connects ni no hs offset) then 1 else 0.
Proof.
  intros Hni Hno Hf.
  destruct (mlp_result ni no hs act offset oact Hni Hno Hf) as [r [Er [_ [_ [_ [P _]]]]]].
  exists r. split; auto. split; auto. intros [x y].
  rewrite (count_pair_perm _ _ _ P). unfold mlp_spec_connects.
  set (LS := mlp_ranges ni (hs ++ [no])).
  set (CP := consecutive (seq 0 ni :: LS)).
  set (BP := if offset then list_prod [ni - 1] (concat LS) else []).
  assert (NC : NoDup CP).
  { unfold CP, LS. apply cons_NoDup. apply seq_NoDup. intros z Hz. apply in_seq in Hz. lia. }
  assert (NB : NoDup BP).
  { unfold BP, LS. destruct offset; [|constructor]. apply NoDup_list_prod. repeat constructor; auto.
    rewrite concat_mlp_ranges. apply seq_NoDup. }
  rewrite count_pair_app, existsb_app, (count_pair_nodup _ CP NC), (count_pair_nodup _ BP NB).
  simpl fst. simpl snd.
  (* a row is in both parts iff it goes from the bias column to the first layer *)
  assert (E : offset && (x =? ni - 1) && mem y (hd [] LS)
              = existsb (pair_eqb (x, y)) CP && existsb (pair_eqb (x, y)) BP).
  { apply Bool.eq_iff_eq_true. rewrite !andb_true_iff, !existsb_pair_In, Nat.eqb_eq, mem_In.
    assert (HBP : In (x, y) BP <-> offset = true /\ x = ni - 1 /\ In y (concat LS)).
    { unfold BP. destruct offset; [|simpl; intuition discriminate].
      rewrite in_prod_iff. simpl. intuition. }
    assert (HCP : x = ni - 1 -> (In (x, y) CP <-> In y (hd [] LS))).
    { intros ->. unfold CP, LS. rewrite cons_first; try (intros z Hz; apply in_seq in Hz); try lia.
      rewrite in_seq. intuition lia. }
    rewrite HBP. split.
    - intros [[Ho Ex] Hy]. rewrite HCP by auto. repeat split; auto.
      destruct LS as [|L0 LS']; [destruct Hy|]. simpl in *. apply in_app_iff. auto.
    - intros [H1 [Ho [Ex _]]]. rewrite HCP in H1 by auto. auto. }
  rewrite E. destruct (existsb (pair_eqb (x, y)) CP), (existsb (pair_eqb (x, y)) BP); reflexivity.
Qed.

Lemma srcs_of_app l1 l2 t : srcs_of (l1 ++ l2) t = srcs_of l1 t ++ srcs_of l2 t.
Proof. unfold srcs_of. rewrite filter_app, map_app. reflexivity. Qed.
Lemma srcs_of_none l t : (forall c, In c l -> snd c <> t) -> srcs_of l t = [].
Proof.
  intro H. unfold srcs_of. rewrite filter_none; auto. intros c Hc. apply Nat.eqb_neq, H, Hc.
Qed.
Lemma srcs_map_pair (a : nat) B t : NoDup B -> In t B -> srcs_of (map (pair a) B) t = [a].
Proof.
  intro ND. induction ND as [|b B Hb ND IH]; intro Hin; [destruct Hin|].
  unfold srcs_of in *. simpl. destruct (b =? t) eqn:E.
  - apply Nat.eqb_eq in E. subst b. simpl. f_equal.
    apply (srcs_of_none (map (pair a) B) t). intros c Hc. apply in_map_iff in Hc.
    destruct Hc as [z [<- Hz]]. simpl. intro Ez. subst. auto.
  - apply IH. destruct Hin as [Hin|Hin]; auto. subst. rewrite Nat.eqb_refl in E. discriminate.
Qed.
Lemma srcs_prod (A B : list nat) t : NoDup B -> In t B -> srcs_of (list_prod A B) t = A.
Proof.
  intros ND Hin. induction A as [|a A IH]; simpl; auto.
  rewrite srcs_of_app, srcs_map_pair, IH; auto.
Qed.

Lemma spec_output_srcs ni no hs offset t :
  In t (seq (ni + list_sum hs) no) ->
  srcs_of (mlp_spec_connects ni no hs offset) t
  = prev_layer ni hs ++ (if offset then [ni - 1] else []).
Proof.
  intro Ht. unfold mlp_spec_connects. rewrite mlp_ranges_snoc, app_comm_cons.
  rewrite consecutive_snoc by discriminate. fold (prev_layer ni hs).
  rewrite !srcs_of_app, srcs_of_none, srcs_prod; auto using seq_NoDup.
  - cbn [app]. f_equal. destruct offset; [|reflexivity].
    rewrite concat_app, concat_mlp_ranges. cbn [concat]. rewrite app_nil_r, <- seq_app.
    apply srcs_prod; [apply seq_NoDup|]. apply in_seq. apply in_seq in Ht. lia.
  - intros [x y] Hc. simpl. apply consecutive_In in Hc. destruct Hc as [_ Hc]. simpl in Hc.
    rewrite concat_mlp_ranges in Hc.
    apply in_seq in Hc. apply in_seq in Ht. lia.
Qed.

Theorem mlp_premises ni no hs act offset oact :
  1 <= ni -> 1 <= no -> Forall (fun h => 1 <= h) hs -> act <> 5 ->
  exists r, define_net true ni no hs act offset oact = Some r /\
    Layered r /\ sm_same r /\
    (forall v, In v (n_in r ++ hidden r ++ n_out r) -> v < ni + list_sum hs + no).
Proof.
  intros Hni Hno Hf Hact.
  destruct (mlp_result ni no hs act offset oact Hni Hno Hf) as [r [Er [A1 [A2 [A3 [P [I [Hin [A6 A7]]]]]]]]].
  exists r. split; auto. split; [apply (LInv_Layered ni); auto|]. split.
  - intros u v Hu Hv.
    assert (Hout : forall z, alookup z (n_act r) = Some 5 -> In z (seq (ni + list_sum hs) no)).
    { intros z Hz. assert (Hk : In z (map fst (n_act r))) by (apply alookup_Some; eauto).
      apply (li_act _ _ I), in_app_iff in Hk. destruct Hk as [Hk|Hk]; [|rewrite <- A3; auto].
      rewrite (A6 z Hk) in Hz. inversion Hz. congruence. }
    apply key_of_eq. rewrite !(srcs_of_perm _ _ _ P), !spec_output_srcs by auto. apply Permutation_refl.
  - unfold hidden. rewrite A1, A2, A3, concat_mlp_ranges. intro v. rewrite !in_app_iff, !in_seq. lia.
Qed.
