(* GPOpsProofs4.v — C08, part 4: the uniform crossover family (uniform, proportional, rank,
   tournament) for ANY number of parents.  The loop of the family, run over the recursive common
   region (GPOps.crk_tag) with ANY donor vector, builds a mix of the parents (GPOps.mix), and mixes
   are closed.  That get_common_region returns the recursive region is a hypothesis of the closure
   theorems here; region_two (TreeIdx.cr_rec is crk_tag on two trees) discharges it for two parents,
   GPOpsProofs6.region_is_rec for every number of parents. *)
From TF Require Import TreeProofs TreeCR TreeCRk GPOps GPOpsProofs.
Open Scope nat_scope.

Lemma NoDup_map_inj {A B} (f : A -> B) (l : list A) a b :
  NoDup (map f l) -> In a l -> In b l -> f a = f b -> a = b.
Proof.
  induction l as [|x l IH]; simpl; intros ND Ha Hb E; [contradiction|].
  inversion ND as [|? ? Hn ND']; subst.
  destruct Ha as [<-|Ha]; destruct Hb as [<-|Hb]; auto.
  - exfalso. apply Hn. rewrite E. apply in_map; auto.
  - exfalso. apply Hn. rewrite <- E. apply in_map; auto.
Qed.

Section U.
  Context {sym : Type}.
  Variable arity : sym -> nat.
  Notation tree := (tree sym).
  Notation nargs := (nargs arity).
  Notation wft := (wft arity).
  Notation wff := (wff arity).
  Notation mk := (mk arity).
  Notation good := (good arity).
  Notation mix := (mix arity).
  Notation crk_tag := (crk_tag arity).
  Notation root_arities := (root_arities arity).
  Notation pt := (ptree sym).

  (* the i-th arguments of a tuple are arguments of its trees *)
  Lemma kid_col_In i (ts : list tree) t0 k : Forall (fun t => wft t = true) ts ->
    all_eqb (root_arities ts) = true -> In t0 ts -> i < arity (root t0) -> In k (kid_col i ts) ->
    exists t, In t ts /\ In k (children t).
  Proof.
    intros W A H0 Hi Hk. apply in_map_iff in Hk. destruct Hk as (t & <- & Ht). exists t.
    pose proof (same_arity arity ts t0 W A H0 t Ht) as Ln. rewrite Forall_forall in W.
    destruct (wft_children arity t (W t Ht)) as (La & _).
    split; [exact Ht|apply nth_In; lia].
  Qed.

  Theorem mix_wf ts c : mix ts c -> Forall (fun t => wft t = true) ts -> wft c = true.
  Proof.
    induction 1 as [ts t A Hin|ts s kids A (t0 & Ht0 & <-) HL HK IH]; intros W.
    - rewrite Forall_forall in W. auto.
    - apply wft_Node. split; auto. apply wff_Forall, Forall_forall. intros k Hk.
      destruct (In_nth _ _ (Node (root t0) []) Hk) as (i & Hi & <-). apply IH; auto.
      apply (kid_col_wf arity i ts t0 W A Ht0). lia.
  Qed.

  Theorem mix_depth ts c : mix ts c -> Forall (fun t => wft t = true) ts ->
    forall d, (forall t, In t ts -> depth t <= d) -> depth c <= d.
  Proof.
    induction 1 as [ts t A Hin|ts s kids A (t0 & Ht0 & <-) HL HK IH]; intros W d Hd; auto.
    apply depth_Node_le, Forall_forall. intros k Hk.
    destruct (In_nth _ _ (Node (root t0) []) Hk) as (i & Hi & <-).
    assert (Hkids : forall k', In k' (kid_col i ts) -> S (depth k') <= d).
    { intros k' Hk'. destruct (kid_col_In i ts t0 k' W A Ht0 ltac:(lia) Hk') as (t & Ht & Hc).
      pose proof (child_depth_lt t k' Hc). pose proof (Hd t Ht). lia. }
    destruct d as [|d].
    - destruct ts as [|t1 ts]; [destruct Ht0|].
      pose proof (Hkids (nth i (children t1) t1) (or_introl eq_refl)). lia.
    - apply le_n_S, IH; auto.
      + apply (kid_col_wf arity i ts t0 W A Ht0). lia.
      + intros k' Hk'. apply Hkids in Hk'. lia.
  Qed.

  Theorem mix_syms ts c : mix ts c -> Forall (fun t => wft t = true) ts ->
    forall x, In x (flatten c) -> exists t, In t ts /\ In x (flatten t).
  Proof.
    induction 1 as [ts t A Hin|ts s kids A (t0 & Ht0 & <-) HL HK IH]; intros W x Hx; eauto.
    destruct Hx as [<-|Hx]; [exists t0; split; [exact Ht0|destruct t0; left; reflexivity]|].
    apply in_flats in Hx. destruct Hx as (k & Hk & Hx).
    destruct (In_nth _ _ (Node (root t0) []) Hk) as (i & Hi & <-).
    destruct (IH i Hi (kid_col_wf arity i ts t0 W A Ht0 ltac:(lia)) x Hx) as (k' & Hk' & Hx').
    destruct (kid_col_In i ts t0 k' W A Ht0 ltac:(lia) Hk') as (t & Ht & Hc).
    exists t. split; [exact Ht|]. destruct t as [s' kids']. right. apply in_flats. eauto.
  Qed.

  Definition hd0 (c : tcol) : nat := hd 0 (fst c).
  (* the recursive region of GPOps.v and the one of TreeCRk.v are the same definition *)
  Lemma crk_tag_is_crk_rec : forall f (ts : list tree) os, crk_tag f ts os = crk_rec arity f ts os.
  Proof. intros f ts os. reflexivity. Qed.

  Lemma crk_heads f (T0 : tree) Ts' os : Forall (fun t => wft t = true) (T0 :: Ts') -> depth T0 < f ->
    length os = length (T0 :: Ts') -> NoDup (map hd0 (crk_tag f (T0 :: Ts') os)).
  Proof.
    intros W Hf Lo. rewrite crk_tag_is_crk_rec, (crk_rec_fuel arity f (S (depth T0))) by (inversion W; auto).
    destruct (tagsW_heads arity (length Ts') [T0 :: Ts'] os) as [_ ND];
      [constructor; [split; [reflexivity|exact W]|constructor]|exact Lo|].
    cbn [tagsW] in ND. rewrite app_nil_r in ND. exact ND.
  Qed.

  (* membership in border[0] decides exactly the tag *)
  Lemma retag (L : list tcol) : NoDup (map hd0 L) -> forall c, In c L ->
    existsb (Nat.eqb (hd 0 (fst c))) (map (hd 0) (map fst (filter snd L))) = snd c.
  Proof.
    intros ND c Hc. destruct (snd c) eqn:Ec.
    - apply existsb_exists. exists (hd 0 (fst c)). split; [|apply Nat.eqb_refl].
      apply in_map, in_map. apply filter_In. auto.
    - destruct (existsb _ _) eqn:Ex; auto. exfalso.
      apply existsb_exists in Ex. destruct Ex as (x & Hx & E). apply Nat.eqb_eq in E. subst x.
      rewrite map_map in Hx. apply in_map_iff in Hx. destruct Hx as (c' & E' & Hc').
      apply filter_In in Hc'. destruct Hc' as (Hc' & T').
      assert (c' = c) by (apply (NoDup_map_inj hd0 L); auto). subst c'. congruence.
  Qed.

  Fixpoint ufold_t (ps : list pt) (L : list tcol) (pool : list Z) : option pt :=
    match L with
    | [] => Some ([], [])
    | c :: L' =>
      match pool with
      | [] => None
      | j :: pool' =>
        match nth_error ps (Z.to_nat j), nth_error (fst c) (Z.to_nat j) with
        | Some p, Some id =>
          let part :=
            if snd c then subtree_p p id
            else match nth_error (fst p) id, nth_error (snd p) id with
                 | Some x, Some n => Some ([x], [n])
                 | _, _ => None
                 end in
          match part, ufold_t ps L' pool' with
          | Some s, Some r => Some (fst s ++ fst r, snd s ++ snd r)
          | _, _ => None
          end
        | _, _ => None
        end
      end
    end.

  Lemma uniform_fold_retag ps bor0 : forall L pool,
    (forall c, In c L -> existsb (Nat.eqb (hd 0 (fst c))) bor0 = snd c) ->
    uniform_fold ps bor0 (map fst L) pool = ufold_t ps L pool.
  Proof.
    induction L as [|c L IH]; intros pool H; simpl; auto.
    destruct pool as [|j pool]; auto.
    rewrite (H c (or_introl eq_refl)), IH by (intros; apply H; right; auto). reflexivity.
  Qed.

  (* occurrences: tree t_j is encoded inside node list P_j at position o_j *)
  Inductive occs : list (list sym) -> list tree -> list nat -> Prop :=
  | occs_nil : occs [] [] []
  | occs_cons P t o Ps ts os pre post :
      P = pre ++ flatten t ++ post -> length pre = o -> wft t = true -> occs Ps ts os ->
      occs (P :: Ps) (t :: ts) (o :: os).

  Lemma occs_nth Ps ts os : occs Ps ts os -> forall j p id,
    nth_error (map mk Ps) j = Some p -> nth_error os j = Some id ->
    exists P t pre post, p = mk P /\ nth_error ts j = Some t /\ P = pre ++ flatten t ++ post /\
                         length pre = id /\ wft t = true.
  Proof.
    induction 1 as [|P t o Ps ts os pre post E L W H IH]; intros j p id Hp Hid.
    - destruct j; discriminate.
    - destruct j as [|j]; simpl in *.
      + inversion Hp; inversion Hid; subst. exists (pre ++ flatten t ++ post), t, pre, post. auto.
      + apply IH; auto.
  Qed.
  Lemma occs_wft Ps ts os : occs Ps ts os -> Forall (fun t => wft t = true) ts.
  Proof. induction 1; constructor; auto. Qed.

  (* the i-th arguments as occurrences; offsets as crk_kids maintains them *)
  Inductive kid_occs (i : nat) : list (list sym) -> list tree -> list nat -> Prop :=
  | kid_occs_nil : kid_occs i [] [] []
  | kid_occs_cons P t o Ps ts os pre post :
      P = pre ++ flatten t ++ post -> o = S (length pre) + sizes (firstn i (children t)) -> wft t = true ->
      kid_occs i Ps ts os -> kid_occs i (P :: Ps) (t :: ts) (o :: os).

  Lemma kid_occs_start Ps ts os : occs Ps ts os -> kid_occs 0 Ps ts (map S os).
  Proof.
    induction 1 as [|P t o Ps ts os pre post E L W H IH]; simpl; [constructor|].
    econstructor; eauto. simpl. rewrite sizes_nil. lia.
  Qed.

  Lemma firstn_S_nth {A} (l : list A) i d : i < length l -> firstn (S i) l = firstn i l ++ [nth i l d].
  Proof.
    revert i; induction l as [|x l IH]; intros [|i] H; simpl in *; try lia; auto. f_equal. apply IH. lia.
  Qed.
  Lemma kid_occs_here i Ps ts os : kid_occs i Ps ts os -> (forall t, In t ts -> i < length (children t)) ->
    occs Ps (kid_col i ts) os.
  Proof.
    induction 1 as [|P t o Ps ts os pre post E O W H IH]; intros Hi; simpl; [constructor|].
    pose proof (nth_error_nth' (children t) t (Hi t (or_introl eq_refl))) as Hk.
    destruct t as [s kids]. simpl children in *.
    destruct (kid_occ s kids i _ pre post Hk) as [Eo Lo].
    apply (occs_cons _ _ _ _ _ _ _ _ (eq_trans E Eo)); [congruence| |apply IH; intros; apply Hi; right; auto].
    exact (Forall_nth_error _ _ _ _ (proj2 (wft_children arity _ W)) Hk).
  Qed.

  Lemma kid_occs_next i Ps ts os : kid_occs i Ps ts os -> (forall t, In t ts -> i < length (children t)) ->
    kid_occs (S i) Ps ts (map (fun ok => fst ok + size (snd ok)) (combine os (kid_col i ts))).
  Proof.
    induction 1 as [|P t o Ps ts os pre post E O W H IH]; intros Hi; simpl; [constructor|].
    assert (Hit : i < length (children t)) by (apply Hi; left; auto).
    econstructor; eauto.
    - rewrite (firstn_S_nth _ _ t Hit), sizes_app, sizes_singleton. lia.
    - apply IH. intros; apply Hi; right; auto.
  Qed.

  Definition piece (c : tree) (r : pt) : pt := (flatten c ++ fst r, nargs (flatten c) ++ snd r).
  Definition pieces (cs : list tree) (r : pt) : pt := (flats cs ++ fst r, nargs (flats cs) ++ snd r).

  (* the loop invariant: the columns of one tuple are consumed, a mix of that tuple is produced *)
  Definition mixes (f : nat) : Prop := forall Ps (t0 : tree) ts' os, occs Ps (t0 :: ts') os -> depth t0 < f ->
    forall rest pool r,
      ufold_t (map mk Ps) (crk_tag f (t0 :: ts') os ++ rest) pool = Some r ->
      exists c pool' r', mix (t0 :: ts') c /\ ufold_t (map mk Ps) rest pool' = Some r' /\ r = piece c r'.

  (* ... then the columns of the arguments i, i+1, ..: one mix per argument *)
  Lemma ufold_kids f ar Ps (t0 : tree) ts' (d : tree) : mixes f -> depth t0 <= f ->
    (forall t, In t (t0 :: ts') -> length (children t) = ar) ->
    forall n i osi, kid_occs i Ps (t0 :: ts') osi -> i + n = ar ->
    forall rest pool r,
      ufold_t (map mk Ps) (crk_kids (crk_tag f) n i (t0 :: ts') osi ++ rest) pool = Some r ->
      exists cs pool' r', length cs = n /\
        (forall m, m < n -> mix (kid_col (i + m) (t0 :: ts')) (nth m cs d)) /\
        ufold_t (map mk Ps) rest pool' = Some r' /\ r = pieces cs r'.
  Proof.
    intros IH Hf Hlen. set (ts := t0 :: ts') in *.
    induction n as [|n IHn]; intros i osi HK Hin rest pool r H.
    - exists [], pool, r. simpl in H. repeat split; auto. intros; lia. destruct r; reflexivity.
    - cbn [crk_kids] in H. rewrite <- app_assoc in H.
      assert (Hi : forall t, In t ts -> i < length (children t)) by (intros t Ht; rewrite (Hlen t Ht); lia).
      pose proof (kid_occs_here _ _ _ _ HK Hi) as HOi.
      pose proof (child_depth_lt t0 _ (nth_In _ t0 (Hi t0 (or_introl eq_refl)))) as Hd.
      destruct (IH _ _ _ _ HOi ltac:(lia) _ _ _ H) as (c & pool1 & r1 & Mc & H1 & ->).
      destruct (IHn (S i) _ (kid_occs_next _ _ _ _ HK Hi) ltac:(lia) _ _ _ H1)
        as (cs & pool2 & r2 & Lcs & Mcs & H2 & ->).
      exists (c :: cs), pool2, r2. split; [simpl; lia|]. split; [|split; auto].
      + intros [|m] Hm; simpl.
        * rewrite Nat.add_0_r. exact Mc.
        * rewrite <- Nat.add_succ_comm. apply Mcs. lia.
      + unfold piece, pieces. cbn [fst snd]. rewrite flats_cons, nargs_app, <- !app_assoc. reflexivity.
  Qed.

  (* one column: the donor is drawn; a border column contributes the whole sub-term of the donor at
     its position, an interior column the node there *)
  Lemma ufold_col Ps (ts : list tree) os (b : bool) rest pool r : occs Ps ts os ->
    ufold_t (map mk Ps) ((os, b) :: rest) pool = Some r ->
    exists j pool' t r1, pool = j :: pool' /\ nth_error ts (Z.to_nat j) = Some t /\ wft t = true /\
      ufold_t (map mk Ps) rest pool' = Some r1 /\
      r = if b then piece t r1 else (root t :: fst r1, arity (root t) :: snd r1).
  Proof.
    intros HO H. cbn [ufold_t fst snd] in H. destruct pool as [|j pool]; [discriminate|].
    destruct (nth_error (map mk Ps) (Z.to_nat j)) as [p|] eqn:Ep; [|discriminate].
    destruct (nth_error os (Z.to_nat j)) as [id|] eqn:Eid; [|discriminate].
    destruct (occs_nth _ _ _ HO _ _ _ Ep Eid) as (P & t & pre & post & -> & Et & EP & Lp & Wt).
    exists j, pool, t. destruct b.
    - rewrite subtree_p_mk, EP, <- Lp, (subtree_occ arity t pre post Wt) in H. cbn [option_map] in H.
      destruct (ufold_t (map mk Ps) rest pool) as [r1|]; [|discriminate]. inversion H. exists r1. auto.
    - assert (Ex : nth_error P id = Some (root t))
        by (rewrite EP, <- Lp; destruct t; rewrite flatten_Node; simpl; apply nth_error_occ).
      cbn [mk fst snd] in H. rewrite Ex, (map_nth_error arity _ _ Ex : nth_error (nargs P) id = Some _) in H.
      destruct (ufold_t (map mk Ps) rest pool) as [r1|]; [|discriminate]. inversion H. exists r1. auto.
  Qed.

  Lemma ufold_mix : forall f, mixes f.
  Proof.
    induction f as [|f IH]; intros Ps t0 ts' os HO Hf rest pool r H; [lia|].
    set (ts := t0 :: ts') in *.
    pose proof (occs_wft _ _ _ HO) as W.
    cbn [GPOps.crk_tag] in H. destruct (all_eqb (root_arities ts)) eqn:A; cbn [app] in H;
      destruct (ufold_col _ _ _ _ _ _ _ HO H) as (j & pool1 & t & r1 & -> & Et & Wt & E1 & ->);
      pose proof (nth_error_In _ _ Et) as Hts.
    - (* interior column: one node of the drawn parent, then the arguments *)
      assert (Hn : hd 0 (root_arities ts) = arity (root t)).
      { apply (all_eqb_same _ _ _ A); unfold GPOps.root_arities; [left; reflexivity|].
        apply in_map_iff. exists t. auto. }
      rewrite Hn in E1.
      destruct (ufold_kids f _ Ps t0 ts' (Node (root t) []) IH ltac:(lia) (same_arity arity ts t W A Hts)
                  _ 0 (map S os) (kid_occs_start _ _ _ HO) eq_refl _ _ _ E1)
        as (cs & pool' & r' & Lcs & Mcs & Hr & ->).
      exists (Node (root t) cs), pool', r'. split; [|split; [exact Hr|reflexivity]].
      apply mix_node; eauto. intros i Hi. apply (Mcs i). lia.
    - (* border column: the whole sub-term of the drawn parent *)
      exists t, pool1, r1. split; [apply mix_border; auto|split; [exact E1|reflexivity]].
  Qed.

  Definition parents_of (Ts : list tree) : list pt := map mk (map flatten Ts).
  (* what get_common_region must have returned: the recursive common region *)
  Definition region_rec (Ts : list tree) (fuel : nat) : list (list nat) * list nat :=
    let L := crk_tag fuel Ts (map (fun _ => 0) Ts) in
    (map fst L, map (hd 0) (map fst (filter snd L))).

  Lemma occs_top (Ts : list tree) : Forall (fun t => wft t = true) Ts ->
    occs (map flatten Ts) Ts (map (fun _ => 0) Ts).
  Proof.
    induction 1 as [|t Ts W H IH]; simpl; [constructor|].
    apply (occs_cons _ _ _ _ _ _ [] []); auto. rewrite app_nil_r. reflexivity.
  Qed.

  Theorem uniform_with_spec T0 Ts' fuel draw_pool ds c ds' :
    Forall (fun t => wft t = true) (T0 :: Ts') -> depth T0 < fuel ->
    region arity (parents_of (T0 :: Ts')) = Some (region_rec (T0 :: Ts') fuel) ->
    uniform_with arity (parents_of (T0 :: Ts')) draw_pool ds = Some (c, ds') ->
    exists C, good c C /\ mix (T0 :: Ts') C.
  Proof.
    intros W Hf Hreg H. unfold uniform_with in H. rewrite Hreg in H. unfold region_rec in H. cbv zeta in H.
    mstep H. mstep H. injection H as Ec Ed. subst a0 ds0.
    set (L := crk_tag fuel (T0 :: Ts') (map (fun _ => 0) (T0 :: Ts'))) in *.
    rewrite (uniform_fold_retag _ _ L a (retag L (crk_heads fuel T0 Ts' _ W Hf (map_length _ _)))) in Hl.
    rewrite <- (app_nil_r L) in Hl. unfold L, parents_of in Hl.
    destruct (ufold_mix fuel _ T0 Ts' _ (occs_top _ W) Hf [] a c Hl) as (C & pool' & r' & M & Hr & ->).
    simpl in Hr. inversion Hr; subst r'.
    exists C. split; auto. split; [eapply mix_wf; eauto|].
    unfold piece. simpl. rewrite !app_nil_r. reflexivity.
  Qed.

  (* closure in the terms of the property *)
  Definition all_le (ml : nat) (ps : list pt) : Prop := forall p, In p ps -> depthp p <= ml.

  Theorem uniform_with_closed T0 Ts' fuel draw_pool ds c ds' ml :
    Forall (fun t => wft t = true) (T0 :: Ts') -> depth T0 < fuel ->
    region arity (parents_of (T0 :: Ts')) = Some (region_rec (T0 :: Ts') fuel) ->
    uniform_with arity (parents_of (T0 :: Ts')) draw_pool ds = Some (c, ds') ->
    wfp arity c /\ syms_from (parents_of (T0 :: Ts')) c /\ (all_le ml (parents_of (T0 :: Ts')) -> depthp c <= ml).
  Proof.
    intros W Hf Hreg H. destruct (uniform_with_spec _ _ _ _ _ _ _ W Hf Hreg H) as (C & GC & M).
    split; [eapply good_wfp; eauto|]. rewrite (good_depth _ _ _ GC). destruct GC as (_ & ->). simpl. split.
    - intros x Hx. simpl in Hx. destruct (mix_syms _ _ M W x Hx) as (t & Ht & Hxt).
      exists (mk (flatten t)). split; [exact (in_map mk _ _ (in_map _ _ _ Ht))|exact Hxt].
    - intros Hle. apply (mix_depth _ _ M W). intros t Ht.
      pose proof (Hle _ (in_map mk _ _ (in_map _ _ _ Ht))) as Hp. rewrite Forall_forall in W.
      rewrite (good_depth arity _ t (good_mk arity t (W t Ht))) in Hp. exact Hp.
  Qed.

  Notation cr_rec := (cr_rec arity).
  Notation cr_rec_f := (cr_rec_f arity).
  Definition p2c (ab : nat * nat) : list nat := [fst ab; snd ab].

  (* the columns and the borders of a list of tagged columns, as the recursion of TreeIdx.cr_rec has them *)
  Definition same_region (L : list tcol) (r : cr_out) : Prop :=
    map fst L = map p2c (fst r) /\ map fst (filter snd L) = map p2c (snd r).
  Definition two_ok (f : nat) : Prop := forall (t1 t2 : tree) o1 o2,
    wft t1 = true -> wft t2 = true -> depth t1 < f ->
    same_region (crk_tag f [t1; t2] [o1; o2]) (cr_rec t1 t2 o1 o2).

  Lemma crk_kids_two f (t1 t2 : tree) : two_ok f -> wft t1 = true -> wft t2 = true -> depth t1 <= f ->
    length (children t1) = length (children t2) ->
    forall n i a b, i + n = length (children t1) ->
      same_region (crk_kids (crk_tag f) n i [t1; t2] [a; b])
                  (cr_rec_f (skipn i (children t1)) (skipn i (children t2)) a b).
  Proof.
    intros IH W1 W2 Hd L. destruct (wft_children arity t1 W1) as (_ & Wk1).
    destruct (wft_children arity t2 W2) as (_ & Wk2). rewrite Forall_forall in Wk1, Wk2.
    induction n as [|n IHn]; intros i a b Hin.
    - rewrite !skipn_all2 by lia. split; reflexivity.
    - assert (H1 : i < length (children t1)) by lia. assert (H2 : i < length (children t2)) by lia.
      rewrite (skipn_nth_cons _ _ t1 H1), (skipn_nth_cons _ _ t2 H2), cr_rec_f_cons.
      pose proof (nth_In _ t1 H1) as In1. pose proof (child_depth_lt t1 _ In1) as Hd1.
      destruct (IH _ _ a b (Wk1 _ In1) (Wk2 _ (nth_In _ t2 H2)) ltac:(lia)) as (A1 & A2).
      destruct (IHn (S i) (a + size (nth i (children t1) t1)) (b + size (nth i (children t2) t2)) ltac:(lia))
        as (B1 & B2).
      cbn [crk_kids kid_col map combine fst snd]. unfold same_region, tcol, cr_app in *. cbn [fst snd].
      split; [rewrite !map_app, A1, B1; reflexivity|rewrite filter_app, !map_app, A2, B2; reflexivity].
  Qed.

  Lemma cr_rec_crk_tag : forall f, two_ok f.
  Proof.
    induction f as [|f IH]; intros [s1 k1] [s2 k2] o1 o2 W1 W2 Hd; [lia|].
    unfold same_region. cbn [GPOps.crk_tag]. rewrite cr_rec_Node.
    unfold GPOps.root_arities. simpl map. unfold all_eqb. simpl forallb. rewrite andb_true_r.
    destruct (arity s1 =? arity s2) eqn:A; [|split; reflexivity].
    apply Nat.eqb_eq in A. simpl hd.
    destruct (wft_children arity _ W1) as (L1 & _). destruct (wft_children arity _ W2) as (L2 & _).
    destruct (crk_kids_two f _ _ IH W1 W2 ltac:(lia) ltac:(simpl in *; lia) (arity s1) 0 (S o1) (S o2) (eq_sym L1))
      as (F1 & F2).
    cbn [map filter fst snd]. rewrite F1, F2. split; reflexivity.
  Qed.

  Lemma region_two T1 T2 : wft T1 = true -> wft T2 = true ->
    region arity (parents_of [T1; T2]) = Some (region_rec [T1; T2] (S (depth T1))).
  Proof.
    intros W1 W2. unfold parents_of, region, region_rec. cbn [map].
    unfold mk at 1 2. cbn [snd].
    rewrite (common_region_two_spec arity T1 T2 W1 W2). cbn [option_map fst snd].
    destruct (cr_rec_crk_tag (S (depth T1)) T1 T2 0 0 W1 W2 (Nat.lt_succ_diag_r _)) as (A1 & A2).
    rewrite A1, A2. f_equal. f_equal. rewrite map_map. apply map_ext. intros [a b]. reflexivity.
  Qed.

  Theorem uniform_two_spec p1 T1 p2 T2 draw_pool ds c ds' :
    good p1 T1 -> good p2 T2 ->
    uniform_with arity [p1; p2] draw_pool ds = Some (c, ds') ->
    exists C, good c C /\ mix [T1; T2] C.
  Proof.
    intros (W1 & ->) (W2 & ->) H.
    apply (uniform_with_spec T1 [T2] (S (depth T1)) draw_pool ds c ds'); auto.
    apply region_two; auto.
  Qed.

  Theorem uniform_two_closed p1 p2 draw_pool ds c ds' :
    wfp arity p1 -> wfp arity p2 ->
    uniform_with arity [p1; p2] draw_pool ds = Some (c, ds') ->
    wfp arity c /\ syms_from [p1; p2] c /\ depthp c <= Nat.max (depthp p1) (depthp p2).
  Proof.
    intros G1 G2 H. apply wfp_good in G1, G2.
    destruct G1 as (T1 & W1 & ->). destruct G2 as (T2 & W2 & ->).
    destruct (uniform_with_closed T1 [T2] (S (depth T1)) draw_pool ds c ds'
                (Nat.max (depthp (mk (flatten T1))) (depthp (mk (flatten T2))))) as (A & B & D); auto.
    - apply region_two; auto.
    - split; auto. split; auto. apply D. intros p [<-|[<-|[]]]; lia.
  Qed.
End U.
