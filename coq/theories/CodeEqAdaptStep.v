(* CodeEqAdaptStep.v — one generation of the ADAPTIVE optimizers (SHADE / jDE / SHAGA `_get_new_population`, generated into
   coq/gen/GenLoop.v as functions on the base record + the subclass's own state).  Each generated step is shown equal to one
   explicit record (`sh_flat`, `jd_flat`, `sg_flat`); its fields are then read against DifferentialEvolution's greedy step on
   the base record and against Adapt.v (C15).  The random parts (parameter generation, trial vectors, archive truncation) are
   oracles here; their own translations are related to the models in CodeEqAdapt.v / CodeEqC07.v. *)
From TF Require Import QSum Py PyLemmas CodeEqStep Adapt CodeEqAdapt.
From TFG Require Import GenCode GenLoop.
Open Scope Z_scope.

Lemma mask_select_successful {A} : forall (par trial : list Q) (xs : list A),
  mask_select (gt_mask trial par) xs = successful par trial xs.
Proof.
  unfold successful, gt_mask.
  induction par as [|p par IH]; intros trial xs.
  - destruct trial; reflexivity.
  - destruct trial as [|t trial]; [reflexivity|]. destruct xs as [|x xs]; [cbn; destruct (Qltb p t); reflexivity|].
    cbn [combine map mask_select filter fst snd]. destruct (Qltb p t); cbn [map snd]; [f_equal|]; apply IH.
Qed.

Lemma Qltb_Qle a b : Qltb a b = true -> Qle_bool a b = true.
Proof. intro H. apply Qle_bool_iff, Qlt_le_weak, Qltb_lt, H. Qed.

(* the code reads the improvement off the population AFTER the replacement: a strictly improved slot holds its trial there *)
Lemma improvements_code : forall (par trial : list Q),
  vabs (vsub (mask_select (gt_mask trial par) par) (mask_select (gt_mask trial par) (mask_write (geq_mask trial par) trial par)))
  = improvements par trial.
Proof.
  unfold improvements, gt_mask, geq_mask, vabs, vsub, vmap2.
  induction par as [|p par IH]; intros trial; [destruct trial; reflexivity|]. destruct trial as [|t trial]; [reflexivity|].
  cbn [combine map mask_select mask_write filter fst snd]. destruct (Qltb p t) eqn:E; [|apply IH].
  rewrite (Qltb_Qle _ _ E). cbn [combine map fst snd]. f_equal. apply IH.
Qed.

Lemma Forall2_upd (l : list Q) i x y : (x == y)%Q -> Forall2 Qeq (upd l i x) (upd l i y).
Proof.
  intro H. revert i; induction l as [|a l IH]; intro i; [destruct i; constructor|].
  destruct i; cbn [upd]; constructor; try reflexivity; [exact H|apply Forall2_Qeq_refl|apply IH].
Qed.

Lemma accept_only_mask_write : forall par trial old new,
  mask_write (geq_mask trial par) new old = accept_only par trial old new.
Proof.
  unfold geq_mask.
  induction par as [|p par IH]; intros trial old new.
  - destruct trial; reflexivity.
  - destruct trial as [|t trial]; [reflexivity|]. destruct old as [|o old]; [destruct new; reflexivity|]. destruct new as [|n new]; [reflexivity|].
    cbn [combine map mask_write accept_only fst snd]. f_equal. apply IH.
Qed.

(* the cyclic memory write, code against Adapt.mem_write, for update functions that agree up to == *)
Lemma mem_write_code (ua ub ua' ub' : Q -> Q) (HA HB : list Q) (k Hs : Z) :
  0 <= k -> Hs = zlen HA -> (forall u, ua u == ua' u)%Q -> (forall u, ub u == ub' u)%Q ->
  let nk := if k + 1 =? Hs then 0 else k + 1 in
  let m' := mem_write ua' ub' {| mem_a := HA; mem_b := HB; mem_k := Z.to_nat k |} in
  Forall2 Qeq (setA HA nk (ua (getQ HA k))) (mem_a m') /\ Forall2 Qeq (setA HB nk (ub (getQ HB k))) (mem_b m') /\
  (if k =? Hs - 1 then 0 else k + 1) = Z.of_nat (mem_k m').
Proof.
  intros Hk -> Ha Hb. cbv zeta. unfold mem_write, next_k, zlen. cbn [mem_a mem_b mem_k]. rewrite !(getQ_nonneg _ _ Hk).
  replace (k + 1 =? Z.of_nat (length HA)) with (S (Z.to_nat k) =? length HA)%nat
    by (destruct (Nat.eqb_spec (S (Z.to_nat k)) (length HA)); symmetry; [apply Z.eqb_eq|apply Z.eqb_neq]; lia).
  replace (k =? Z.of_nat (length HA) - 1) with (S (Z.to_nat k) =? length HA)%nat
    by (destruct (Nat.eqb_spec (S (Z.to_nat k)) (length HA)); symmetry; [apply Z.eqb_eq|apply Z.eqb_neq]; lia).
  destruct (S (Z.to_nat k) =? length HA)%nat.
  - change 0 with (Z.of_nat 0). rewrite !setA_nat. repeat split; now apply Forall2_upd.
  - replace (k + 1) with (Z.of_nat (S (Z.to_nat k))) by lia. rewrite !setA_nat. repeat split; now apply Forall2_upd.
Qed.

Section AdaptStep.
Variables G P : Type.
Variable g2p : G -> P.
Variable f : P -> Q.
Variable par_value : EvolutionaryAlgorithm G P -> list P -> list Q.
Let EA := EvolutionaryAlgorithm G P.
Notation ff := (ff P f).
Notation getph := (getph G P g2p).

(* DE's greedy step on the base record, given the trial vectors *)
Definition de_new_with (trials : list G) : EA -> EA :=
  py_DifferentialEvolution__get_new_population G P ff par_value getph (fun _ => trials).
(* the (sign-normalised) fitness of a batch of trial vectors, as _get_fitness returns it *)
Definition trial_fit (self : EA) (trials : list G) : list Q :=
  snd (py_EvolutionaryAlgorithm__get_fitness G P ff par_value self (getph self trials)).

Section Shade.
Variable sh_trials : SHADE G P -> list G.
Variable sh_generate : SHADE G P -> list Q * list Q.
Variable sh_append : SHADE G P -> list G -> list G -> list G.
Definition sh_new := py_SHADE__get_new_population G P ff par_value getph sh_trials sh_generate sh_append.

(* the object after the parameters were generated and the p-best set / archive view prepared: what the variation operators see *)
Definition sh_pre (self : SHADE G P) : SHADE G P :=
  let self := set_sh_CR G P (snd (sh_generate self)) (set_sh_F G P (fst (sh_generate self)) self) in
  let self := set_sh_pbest_id G P (py_find_pbest_id (ea_fitness_i G P (sh_ea G P self)) (sh_p G P self)) self in
  set_sh_population_archive G P (ea_population_g_i G P (sh_ea G P self) ++ sh_population_g_archive_i G P self) self.

(* the generation step, statement by statement, as one record: the theorems below are its projections *)
Definition sh_flat (self : SHADE G P) : SHADE G P :=
  let pre := sh_pre self in
  let T := sh_trials pre in
  let ea := sh_ea G P self in
  let par := ea_fitness_i G P ea in
  let tf := trial_fit ea T in
  let succ := gt_mask tf par in
  let k := sh_k G P self in
  let nk := if k + 1 =? sh_H_size G P self then 0 else k + 1 in
  {| sh_ea := de_new_with T ea;
     sh_F := fst (sh_generate self); sh_CR := snd (sh_generate self);
     sh_H_F := setA (sh_H_F G P self) nk (py_SHADE_update_u_F (getQ (sh_H_F G P self) k) (mask_select succ (fst (sh_generate self))));
     sh_H_CR := setA (sh_H_CR G P self) nk (py_SHADE_update_u_CR (getQ (sh_H_CR G P self) k) (mask_select succ (snd (sh_generate self)))
                       (vabs (vsub (mask_select succ par) (mask_select succ (mask_write (geq_mask tf par) tf par)))));
     sh_k := if k =? sh_H_size G P self - 1 then 0 else k + 1;
     sh_H_size := sh_H_size G P self; sh_p := sh_p G P self;
     sh_pbest_id := sh_pbest_id G P pre; sh_population_archive := sh_population_archive G P pre;
     sh_population_g_archive_i :=
       sh_append (set_sh_ea G P (fst (py_EvolutionaryAlgorithm__get_fitness G P ff par_value ea (getph ea T))) pre)
                 (sh_population_g_archive_i G P self) (mask_select succ (ea_population_g_i G P ea)) |}.

Lemma sh_new_flat (self : SHADE G P) : sh_new self = sh_flat self.
Proof.
  unfold sh_new, sh_flat, sh_pre, de_new_with, trial_fit. eval_ea.
  destruct (sh_generate self) as [Fs CRs]. reflexivity.
Qed.

Theorem code_shade_base (self : SHADE G P) :
  sh_ea G P (sh_new self) = de_new_with (sh_trials (sh_pre self)) (sh_ea G P self).
Proof. rewrite sh_new_flat. reflexivity. Qed.

(* the memory triple as Adapt.v's record *)
Definition sh_mem (self : SHADE G P) : memory :=
  {| mem_a := sh_H_F G P self; mem_b := sh_H_CR G P self; mem_k := Z.to_nat (sh_k G P self) |}.

Theorem code_shade_memory (self : SHADE G P) :
  0 <= sh_k G P self -> sh_H_size G P self = zlen (sh_H_F G P self) ->
  let par := ea_fitness_i G P (sh_ea G P self) in
  let trial := trial_fit (sh_ea G P self) (sh_trials (sh_pre self)) in
  let m' := shade_memory_step (sh_mem self) par trial (fst (sh_generate self)) (snd (sh_generate self)) in
  Forall2 Qeq (sh_H_F G P (sh_new self)) (mem_a m') /\ Forall2 Qeq (sh_H_CR G P (sh_new self)) (mem_b m') /\
  sh_k G P (sh_new self) = Z.of_nat (mem_k m').
Proof.
  intros Hk HH par trial. rewrite sh_new_flat. unfold sh_flat. cbv zeta. cbn [sh_H_F sh_H_CR sh_k].
  fold par. fold trial. rewrite improvements_code, !mask_select_successful.
  apply (mem_write_code (fun u => py_SHADE_update_u_F u _) (fun u => py_SHADE_update_u_CR u _ _)); auto; intro u;
    [apply code_SHADE_update_u_F|apply code_SHADE_update_u_CR].
Qed.

(* the archive receives exactly the parents that were strictly improved upon *)
Theorem code_shade_archive (self : SHADE G P) : exists s,
  sh_population_g_archive_i G P (sh_new self)
  = sh_append s (sh_population_g_archive_i G P self)
      (successful (ea_fitness_i G P (sh_ea G P self)) (trial_fit (sh_ea G P self) (sh_trials (sh_pre self))) (ea_population_g_i G P (sh_ea G P self))).
Proof.
  rewrite sh_new_flat. unfold sh_flat. cbv zeta. cbn [sh_population_g_archive_i]. rewrite mask_select_successful. eexists. reflexivity.
Qed.

(* the generated parameters are the ones in force for this generation; the configuration is not touched *)
Theorem code_shade_params (self : SHADE G P) :
  sh_F G P (sh_new self) = fst (sh_generate self) /\ sh_CR G P (sh_new self) = snd (sh_generate self) /\
  sh_H_size G P (sh_new self) = sh_H_size G P self /\ sh_p G P (sh_new self) = sh_p G P self.
Proof. rewrite sh_new_flat. repeat split. Qed.
End Shade.

Section JDE.
Variable jd_trials : jDE G P -> list Q -> list Q -> list G.
Variables jd_mutate_F jd_mutate_CR : jDE G P -> list Q.
Definition jd_new := py_jDE__get_new_population G P ff par_value getph jd_trials jd_mutate_F jd_mutate_CR.

Definition jd_flat (self : jDE G P) : jDE G P :=
  let T := jd_trials self (jd_mutate_F self) (jd_mutate_CR self) in
  let ea := jd_ea G P self in
  let mask := geq_mask (trial_fit ea T) (ea_fitness_i G P ea) in
  {| jd_ea := de_new_with T ea; jd_F := mask_write mask (jd_mutate_F self) (jd_F G P self);
     jd_CR := mask_write mask (jd_mutate_CR self) (jd_CR G P self) |}.

Lemma jd_new_flat (self : jDE G P) : jd_new self = jd_flat self.
Proof. unfold jd_new, jd_flat, de_new_with, trial_fit. eval_ea. reflexivity. Qed.

Theorem code_jde_base (self : jDE G P) :
  jd_ea G P (jd_new self) = de_new_with (jd_trials self (jd_mutate_F self) (jd_mutate_CR self)) (jd_ea G P self).
Proof. rewrite jd_new_flat. reflexivity. Qed.

(* an individual's F and CR change only when its trial is accepted *)
Theorem code_jde_accept_only (self : jDE G P) :
  let par := ea_fitness_i G P (jd_ea G P self) in
  let trial := trial_fit (jd_ea G P self) (jd_trials self (jd_mutate_F self) (jd_mutate_CR self)) in
  jd_F G P (jd_new self) = accept_only par trial (jd_F G P self) (jd_mutate_F self) /\
  jd_CR G P (jd_new self) = accept_only par trial (jd_CR G P self) (jd_mutate_CR self).
Proof.
  intros par trial. rewrite jd_new_flat. unfold jd_flat. cbv zeta. cbn [jd_F jd_CR]. split; apply accept_only_mask_write.
Qed.
End JDE.

Section Shaga.
Variable sg_trials : SHAGA G P -> list G.
Variable sg_generate : SHAGA G P -> list Q * list Q.
Definition sg_new := py_SHAGA__get_new_population G P ff par_value getph sg_trials sg_generate.
Definition sg_pre (self : SHAGA G P) : SHAGA G P :=
  set_sg_CR G P (snd (sg_generate self)) (set_sg_MR G P (fst (sg_generate self)) self).

Definition sg_flat (self : SHAGA G P) : SHAGA G P :=
  let T := sg_trials (sg_pre self) in
  let ea := sg_ea G P self in
  let par := ea_fitness_i G P ea in
  let tf := trial_fit ea T in
  let succ := gt_mask tf par in
  let k := sg_k G P self in
  let nk := if k + 1 =? sg_H_size G P self then 0 else k + 1 in
  let df := vabs (vsub (mask_select succ par) (mask_select succ (mask_write (geq_mask tf par) tf par))) in
  {| sg_ea := de_new_with T ea;
     sg_MR := fst (sg_generate self); sg_CR := snd (sg_generate self);
     sg_H_MR := setA (sg_H_MR G P self) nk (py_SHAGA_update_u (getQ (sg_H_MR G P self) k) (mask_select succ (fst (sg_generate self))) df);
     sg_H_CR := setA (sg_H_CR G P self) nk (py_SHAGA_update_u (getQ (sg_H_CR G P self) k) (mask_select succ (snd (sg_generate self))) df);
     sg_k := if k =? sg_H_size G P self - 1 then 0 else k + 1;
     sg_H_size := sg_H_size G P self |}.

Lemma sg_new_flat (self : SHAGA G P) : sg_new self = sg_flat self.
Proof.
  unfold sg_new, sg_flat, sg_pre, de_new_with, trial_fit. eval_ea.
  destruct (sg_generate self) as [Ms CRs]. reflexivity.
Qed.

Theorem code_shaga_base (self : SHAGA G P) :
  sg_ea G P (sg_new self) = de_new_with (sg_trials (sg_pre self)) (sg_ea G P self).
Proof. rewrite sg_new_flat. reflexivity. Qed.

Definition sg_mem (self : SHAGA G P) : memory :=
  {| mem_a := sg_H_MR G P self; mem_b := sg_H_CR G P self; mem_k := Z.to_nat (sg_k G P self) |}.

Theorem code_shaga_memory (self : SHAGA G P) :
  0 <= sg_k G P self -> sg_H_size G P self = zlen (sg_H_MR G P self) ->
  let par := ea_fitness_i G P (sg_ea G P self) in
  let trial := trial_fit (sg_ea G P self) (sg_trials (sg_pre self)) in
  let m' := shaga_memory_step (sg_mem self) par trial (fst (sg_generate self)) (snd (sg_generate self)) in
  Forall2 Qeq (sg_H_MR G P (sg_new self)) (mem_a m') /\ Forall2 Qeq (sg_H_CR G P (sg_new self)) (mem_b m') /\
  sg_k G P (sg_new self) = Z.of_nat (mem_k m').
Proof.
  intros Hk HH par trial. rewrite sg_new_flat. unfold sg_flat. cbv zeta. cbn [sg_H_MR sg_H_CR sg_k].
  fold par. fold trial. rewrite improvements_code, !mask_select_successful.
  apply (mem_write_code (fun u => py_SHAGA_update_u u _ _) (fun u => py_SHAGA_update_u u _ _)); auto; intro u; apply code_SHAGA_update_u.
Qed.
End Shaga.

End AdaptStep.
