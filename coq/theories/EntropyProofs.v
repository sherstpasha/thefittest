(* EntropyProofs.v — a seeded run does not depend on what was drawn before it (C04). *)
From TF Require Import Base Entropy.

(* after an integer / RandomState seed the generator state does not depend on the previous state *)
Theorem reseed_forgets a g1 g2 : a <> SNone -> check_random_state a g1 = check_random_state a g2.
Proof. destruct a; [congruence| |]; intros _; reflexivity. Qed.

(* random_state=None: nothing is reseeded (the run continues the current streams) *)
Theorem none_keeps_state g : check_random_state SNone g = g.
Proof. reflexivity. Qed.
