(* TreeProofs2.v — levels / max_level refine the recursive depth; the parser inverts flatten
   (so well-formedness of a prefix list is decidable and flatten is injective). *)
From Coq Require Import List Arith Lia.
Import ListNotations.
From TF Require Import Tree TreeIdx TreeProofs.

(* the stack of pending argument counts after one argument of its top frame (c + 1 pending, at
   level lv) has been consumed: the frame is dropped when that was its last one *)
Definition norm (c lv : nat) (st : list (nat * nat)) : list (nat * nat) :=
  match c with 0 => st | _ => (c, lv) :: st end.

Lemma norm_step c lv (st : list (nat * nat)) :
  match S c with 1 => st | _ => (S c - 1, lv) :: st end = norm c lv st.
Proof. destruct c; reflexivity. Qed.

Lemma levels_loop_cons c lv st n l :
  levels_loop ((S c, lv) :: st) (n :: l)
  = lv :: levels_loop (if 0 <? n then (n, S lv) :: norm c lv st else norm c lv st) l.
Proof. destruct c; reflexivity. Qed.

Section Proofs2.
  Context {sym : Type}.
  Variable arity : sym -> nat.
  Notation tree := (tree sym).
  Notation nargs := (nargs arity).
  Notation wft := (wft arity).
  Notation wff := (wff arity).

  Lemma levels_loop_wf : forall t : tree, wft t = true -> forall c lv st rest,
    levels_loop ((S c, lv) :: st) (nargs (flatten t) ++ rest)
    = levels_rec lv t ++ levels_loop (norm c lv st) rest.
  Proof.
    induction t as [s kids IH] using tree_ind_Forall. intros W c lv st rest.
    apply wft_Node in W. destruct W as [L W].
    rewrite flatten_Node. change (nargs (s :: flats kids)) with (arity s :: nargs (flats kids)).
    simpl app. rewrite levels_loop_cons. simpl levels_rec. simpl app. f_equal. rewrite <- L. clear L.
    set (st' := norm c lv st).
    replace (if 0 <? length kids then (length kids, S lv) :: st' else st') with (norm (length kids) (S lv) st')
      by (destruct kids; reflexivity).
    induction IH as [|k r Hk _ IHr]; [reflexivity|]. apply wff_cons in W. destruct W as [Wk Wr].
    rewrite flats_cons, nargs_app, <- app_assoc. cbn [length norm flat_map].
    rewrite (Hk Wk), (IHr Wr), app_assoc. reflexivity.
  Qed.

  (* get_levels(i) at the root of an encoded sub-term = the recursive levels of that sub-term *)
  Theorem levels_flat : forall (t : tree) pre rest, wft t = true ->
    levels (nargs (pre ++ flatten t ++ rest)) (length pre) = levels_rec 0 t.
  Proof.
    intros t pre rest Hwf. unfold levels.
    rewrite nargs_app, <- (nargs_length arity pre), skipn_app_len, nargs_app.
    rewrite (levels_loop_wf t Hwf 0 0 [] (nargs rest)). simpl norm.
    destruct (nargs rest); simpl; apply app_nil_r.
  Qed.

  Theorem levels_sub_at : forall (t u : tree) i, wft t = true -> sub_at t i = Some u ->
    levels (nargs (flatten t)) i = levels_rec 0 u.
  Proof.
    intros t u i Hwf Hs. destruct (sub_at_decomp t i u Hs) as (pre & post & E & L & _).
    rewrite E, <- L. apply levels_flat. eapply sub_at_wf; eauto.
  Qed.

  Lemma list_max_levels_rec : forall (t : tree) lv, list_max (levels_rec lv t) = lv + depth t.
  Proof.
    induction t as [s kids IH] using tree_ind_Forall. intros lv. rewrite depth_Node_max. simpl.
    induction IH as [|k r Hk _ IHr]; cbn [flat_map map]; [simpl; lia|]. rewrite list_max_app, Hk.
    change (list_max (S (depth k) :: ?l)) with (Nat.max (S (depth k)) (list_max l)). lia.
  Qed.

  (* get_max_level = depth (a single node has depth 0) *)
  Theorem max_level_flat : forall (t : tree), wft t = true ->
    max_level (nargs (flatten t)) = depth t.
  Proof.
    intros t Hwf. unfold max_level.
    pose proof (levels_flat t [] [] Hwf) as H. simpl in H. rewrite app_nil_r in H.
    rewrite H. apply list_max_levels_rec.
  Qed.

  Lemma levels_rec_length : forall (t : tree) lv, length (levels_rec lv t) = size t.
  Proof.
    induction t as [s kids IH] using tree_ind_Forall. intros lv. simpl. f_equal.
    induction IH as [|k r Hk _ IHr]; simpl; [reflexivity|]. rewrite app_length, Hk, IHr. reflexivity.
  Qed.

  Theorem levels_rec_nth : forall (t : tree) lv i, i < size t ->
    nth i (levels_rec lv t) 0 = lv + level_at t i.
  Proof.
    induction t as [s kids IH] using tree_ind_Forall. intros lv [|j] H; [simpl; lia|].
    rewrite level_at_Node. rewrite size_Node in H. cbn [levels_rec nth].
    assert (Hj : j < sizes kids) by lia. clear H. revert j Hj.
    induction IH as [|k r Hk _ IHr]; intros j Hj; [rewrite sizes_nil in Hj; lia|].
    rewrite sizes_cons in Hj. cbn [flat_map]. rewrite level_at_f_cons. destruct (j <? size k) eqn:C.
    - apply Nat.ltb_lt in C. rewrite app_nth1, Hk by (rewrite ?levels_rec_length; lia). lia.
    - apply Nat.ltb_ge in C. rewrite app_nth2, levels_rec_length by (rewrite ?levels_rec_length; lia).
      apply IHr. lia.
  Qed.

  Lemma parse_n_0 fuel (p : list sym) : parse_n arity fuel 0 p = Some ([], p).
  Proof. destruct fuel; reflexivity. Qed.

  Lemma parse_n_flat : forall t : tree, wft t = true -> forall f n p ts rest, size t <= S f ->
    parse_n arity f n p = Some (ts, rest) ->
    parse_n arity (S f) (S n) (flatten t ++ p) = Some (t :: ts, rest).
  Proof.
    induction t as [s kids IH] using tree_ind_Forall. intros W f n p ts rest Hf Hp.
    apply wft_Node in W. destruct W as [L W]. rewrite size_Node in Hf. apply le_S_n in Hf.
    rewrite flatten_Node. cbn [app parse_n]. rewrite <- L. clear L.
    assert (Q : parse_n arity f (length kids) (flats kids ++ p) = Some (kids, p)).
    { clear Hp. revert f Hf. induction IH as [|k r Hk _ IHr]; intros f Hf; [apply parse_n_0|].
      apply wff_cons in W. destruct W as [Wk Wr]. rewrite sizes_cons in Hf. pose proof (size_pos k).
      destruct f as [|f]; [lia|]. rewrite flats_cons, <- app_assoc. apply (Hk Wk); [lia|]. apply (IHr Wr). lia. }
    rewrite Q, Hp. reflexivity.
  Qed.

  Theorem parse_flatten : forall t : tree, wft t = true -> parse arity (flatten t) = Some t.
  Proof.
    intros t Hwf. unfold parse. rewrite flatten_length, <- (app_nil_r (flatten t)).
    rewrite (parse_n_flat t Hwf (size t) 0 [] [] [] (le_S _ _ (le_n _)) (parse_n_0 _ _)). reflexivity.
  Qed.

  Lemma parse_n_sound : forall fuel n p ts rest,
    parse_n arity fuel n p = Some (ts, rest) ->
    p = flats ts ++ rest /\ wff ts = true /\ length ts = n.
  Proof.
    induction fuel as [|f IH]; intros [|n] p ts rest H;
      try (rewrite parse_n_0 in H; inversion H; subst; auto); [discriminate|].
    simpl in H. destruct p as [|s p']; [discriminate|].
    destruct (parse_n arity f (arity s) p') as [[kids p'']|] eqn:E1; [|discriminate].
    destruct (parse_n arity f n p'') as [[ts' rest']|] eqn:E2; [|discriminate].
    inversion H; subst. apply IH in E1. apply IH in E2.
    destruct E1 as (-> & W1 & L1). destruct E2 as (-> & W2 & L2).
    split; [rewrite flats_cons, flatten_Node, <- app_assoc; reflexivity|].
    split; [|simpl; congruence].
    apply wff_cons. split; auto. apply wft_Node. auto.
  Qed.

  Theorem parse_sound : forall p t, parse arity p = Some t -> wft t = true /\ flatten t = p.
  Proof.
    intros p t. unfold parse.
    destruct (parse_n arity (S (length p)) 1 p) as [[ts rest]|] eqn:E; [|discriminate].
    destruct ts as [|t' [|? ?]]; try discriminate. destruct rest; try discriminate.
    intro H; inversion H; subst. apply parse_n_sound in E. destruct E as (-> & W & _).
    apply wff_cons in W. destruct W as [W _]. split; auto.
    rewrite flats_cons. simpl. rewrite !app_nil_r. reflexivity.
  Qed.

  Theorem wf_iff_parse : forall p, wf arity p <-> exists t, parse arity p = Some t.
  Proof.
    intros p; split.
    - intros (t & W & <-). exists t. apply parse_flatten; auto.
    - intros (t & H). exists t. apply parse_sound; auto.
  Qed.

End Proofs2.
