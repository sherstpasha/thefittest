(* BinaryOpsProofs.v — theorems about the binary-GA operators (C06). *)
From TF Require Import Base RandomPrims RandomPrimsProofs RandomPrimsProofs2 BinaryOps.
Open Scope Q_scope.

(* BinaryOps writes the coin loop and the binomial crossover over Z; the shared lemmas are about these twins *)
Lemma coins_is_flips : coins = flips.
Proof. reflexivity. Qed.
Lemma binomialGA_is_gen : binomialGA = binomial_gen 0%Z.
Proof. reflexivity. Qed.

Lemma build_length n f : length (build n f) = n.
Proof. unfold build. now rewrite map_length, seq_length. Qed.
Lemma build_nth n f i : (i < n)%nat -> nth i (build n f) 0%Z = f i.
Proof. apply map_seq_nth. Qed.

(* every locus of the child is that locus of one of the supplied parents *)
Definition from_parents (ps : list row) (child : row) : Prop :=
  length child = width ps /\
  forall i, (i < width ps)%nat -> exists p, (p < length ps)%nat /\ nth i child 0%Z = gene ps p i.

Lemma from_parents_binary ps child :
  (forall p, (p < length ps)%nat -> binary (nth p ps []) /\ length (nth p ps []) = width ps) ->
  from_parents ps child -> binary child.
Proof.
  intros Hps (Hl & Hg). apply Forall_forall. intros g Hin.
  destruct (In_nth _ _ 0%Z Hin) as (i & Hi & <-). rewrite Hl in Hi.
  destruct (Hg i Hi) as (p & Hp & ->). destruct (Hps p Hp) as (Hb & Hlen).
  unfold gene. unfold binary in Hb. rewrite Forall_forall in Hb. apply Hb. apply nth_In. lia.
Qed.

Lemma build_from_parents ps f :
  (forall i, (i < width ps)%nat -> exists p, (p < length ps)%nat /\ f i = gene ps p i) ->
  from_parents ps (build (width ps) f).
Proof. intro H. split; [apply build_length|]. intros i Hi. rewrite build_nth by exact Hi. auto. Qed.

Theorem empty_clone ps ds c ds' : empty_crossover ps ds = Some (c, ds') -> c = nth 0 ps [] /\ ds' = ds.
Proof. unfold empty_crossover, ret. intros H; inversion H; auto. Qed.

Theorem one_point_sound ps ds child ds' :
  valid_draws ds -> one_point_crossover ps ds = Some (child, ds') ->
  exists c coin, (0 <= c < Z.of_nat (width ps))%Z /\ child = one_point_child ps c coin.
Proof.
  intros Hv H. unfold one_point_crossover in H. minv H.
  apply popI_inv in E as (_ & Hc & _); [eauto|exact Hv].
Qed.

Lemma one_point_child_from_parents ps c coin : (2 <= length ps)%nat -> from_parents ps (one_point_child ps c coin).
Proof.
  intros H2. apply build_from_parents. intros i Hi.
  destruct (c <? Z.of_nat i)%Z; destruct coin; eexists; (split; [|reflexivity]); lia.
Qed.

Lemma one_point_child_structure ps c coin i : (i < width ps)%nat ->
  nth i (one_point_child ps c coin) 0%Z =
  if (Z.of_nat i <=? c)%Z then gene ps (if coin then 0 else 1)%nat i else gene ps (if coin then 1 else 0)%nat i.
Proof.
  intros Hi. unfold one_point_child. rewrite build_nth, Z.ltb_antisym by auto.
  destruct (Z.of_nat i <=? c)%Z; reflexivity.
Qed.

Theorem one_point_complete ps c coin : (0 <= c < Z.of_nat (width ps))%Z ->
  exists ds, valid_draws ds /\ one_point_crossover ps ds = Some (one_point_child ps c coin, []).
Proof.
  intros Hc. exists [DI (Z.of_nat (width ps)) c; DU (if coin then 0 else 1 # 2)].
  split.
  - constructor; [cbn; lia|]. constructor; [|constructor]. destruct coin; cbn; lra.
  - unfold one_point_crossover, bind, popI, flip_coin, bind, popU, ret. rewrite Z.eqb_refl.
    destruct coin; reflexivity.
Qed.

Theorem two_point_sound ps ds child ds' :
  valid_draws ds -> two_point_crossover ps ds = Some (child, ds') ->
  exists c0 c1 coin, (0 <= c0 < c1)%Z /\ (c1 < Z.of_nat (width ps))%Z /\ child = two_point_child ps c0 c1 coin.
Proof.
  intros Hv H. unfold two_point_crossover in H. minv H.
  destruct (random_sample_spec _ _ _ _ _ _ Hv E) as (Hl & Hr & Hnd).
  specialize (Hnd eq_refl).
  destruct l as [|x [|y [|? ?]]]; simpl in Hl; try lia.
  inversion Hr as [|? ? Hx Hr']; subst. inversion Hr' as [|? ? Hy _]; subst.
  inversion Hnd as [|? ? Hnin _]; subst. assert (x <> y) by (intro; subst; apply Hnin; left; auto).
  cbn [nth]. exists (Z.min x y), (Z.max x y), b. repeat split; lia.
Qed.

Lemma two_point_child_from_parents ps c0 c1 coin : (2 <= length ps)%nat -> from_parents ps (two_point_child ps c0 c1 coin).
Proof.
  intros H2. apply build_from_parents. intros i Hi.
  destruct ((c0 <=? Z.of_nat i) && (Z.of_nat i <=? c1))%Z; destruct coin; eexists; (split; [|reflexivity]); lia.
Qed.

(* an in-range list fed as [DI n] draws is returned as it stands (without replacement: if it has no duplicate),
   and the draws after it are left *)
Lemma random_sample_complete n replace rest : forall ch acc, Forall (fun v => (0 <= v < n)%Z) ch ->
  (replace = false -> NoDup (acc ++ ch)) ->
  random_sample_loop n (length acc + length ch) replace acc (map (DI n) ch ++ rest) = Some (acc ++ ch, rest).
Proof.
  induction ch as [|c ch IH]; intros acc Hr Hnd; cbn [map app random_sample_loop length].
  - rewrite Nat.add_0_r, app_nil_r. destruct rest; cbn [random_sample_loop]; now rewrite Nat.leb_refl.
  - assert ((length acc + S (length ch) <=? length acc)%nat = false) as -> by (apply Nat.leb_gt; lia).
    assert (negb replace && memZ c acc = false) as ->.
    { destruct replace; [reflexivity|]. apply not_true_is_false. intro Hin. apply memZ_In in Hin.
      apply (NoDup_remove_2 _ _ _ (Hnd eq_refl)), in_or_app. now left. }
    rewrite Z.eqb_refl. inversion Hr; subst.
    specialize (IH (acc ++ [c])). rewrite <- app_assoc, app_length, <- Nat.add_assoc in IH. now apply IH.
Qed.

Lemma valid_draws_DI n ch : Forall (fun v => (0 <= v < n)%Z) ch -> valid_draws (map (DI n) ch).
Proof. intro H. unfold valid_draws. rewrite Forall_map. exact H. Qed.

Theorem two_point_complete ps c0 c1 coin : (0 <= c0 < c1)%Z -> (c1 < Z.of_nat (width ps))%Z ->
  exists ds, valid_draws ds /\ two_point_crossover ps ds = Some (two_point_child ps c0 c1 coin, []).
Proof.
  intros Hc Hw. set (n := Z.of_nat (width ps)).
  exists (map (DI n) [c0; c1] ++ [DU (if coin then 0 else 1 # 2)]). split.
  - apply Forall_app. split; [apply valid_draws_DI; repeat constructor; lia|].
    constructor; [|constructor]. destruct coin; cbn; lra.
  - unfold two_point_crossover, bind, random_sample. fold n.
    rewrite (random_sample_complete n false _ [c0; c1] []).
    + cbn [app nth]. unfold flip_coin, bind, popU, ret. rewrite Z.min_l, Z.max_r by lia. destruct coin; reflexivity.
    + repeat constructor; lia.
    + intros _. repeat constructor; simpl; intuition lia.
Qed.

Lemma from_choice_from_parents ps ch :
  (forall i, (i < width ps)%nat -> (0 <= nth i ch 0 < Z.of_nat (length ps))%Z) ->
  from_parents ps (from_choice ps ch).
Proof.
  intros Hch. apply build_from_parents. intros i Hi.
  eexists; split; [|reflexivity]. specialize (Hch i Hi). lia.
Qed.

Theorem uniform_from_parents ps fitness rank ds child ds' :
  valid_draws ds -> length fitness = length ps ->
  uniform_crossover ps fitness rank ds = Some (child, ds') ->
  from_parents ps child /\ exists ch, length ch = width ps /\ child = from_choice ps ch.
Proof.
  intros Hv Hk H. unfold uniform_crossover in H. minv H.
  destruct (random_sample_spec _ _ _ _ _ _ Hv E) as (Hl & Hr & _).
  split; [|eauto]. apply from_choice_from_parents. intros i Hi. rewrite <- Hk.
  apply (proj1 (Forall_nth _ _) Hr). lia.
Qed.

Theorem uniform_complete ps fitness rank ch :
  length ch = width ps -> Forall (fun v => (0 <= v < Z.of_nat (length fitness))%Z) ch ->
  exists ds, valid_draws ds /\ uniform_crossover ps fitness rank ds = Some (from_choice ps ch, []).
Proof.
  intros Hl Hr. exists (map (DI (Z.of_nat (length fitness))) ch). split; [now apply valid_draws_DI|].
  unfold uniform_crossover, bind, random_sample.
  pose proof (random_sample_complete (Z.of_nat (length fitness)) true [] ch [] Hr ltac:(discriminate)) as H.
  cbn [length Nat.add app] in H. rewrite Hl, app_nil_r in H. rewrite H. reflexivity.
Qed.

Theorem uniform_weighted_from_parents ps w ds ch ds' :
  w <> [] -> length w = length ps ->
  random_weighted_sample w (width ps) true ds = Some (ch, ds') ->
  from_parents ps (from_choice ps ch).
Proof.
  intros Hne Hk H. destruct (weighted_selection_count_range _ _ _ _ _ Hne H) as (Hl & Hr).
  apply from_choice_from_parents. intros i Hi. rewrite <- Hk. apply (proj1 (Forall_nth _ _) Hr). lia.
Qed.

Lemma pair_winners_length fitness (t : list Z) : forall n, length t = (2 * n)%nat -> length (pair_winners fitness t) = n.
Proof.
  induction t as [|a|a b t IH] using pairs_ind; intros [|n] H; simpl in H; try lia; [reflexivity|].
  cbn [pair_winners length]. f_equal. apply IH. lia.
Qed.

Lemma pair_winners_spec fitness t : forall k, length t = (2 * k)%nat ->
  length (pair_winners fitness t) = k /\
  forall i, (i < k)%nat ->
    let a := nth (2 * i) t 0%Z in let b := nth (2 * i + 1) t 0%Z in
    let w := nth i (pair_winners fitness t) 0%Z in
    (w = a \/ w = b) /\
    nth (Z.to_nat a) fitness 0 <= nth (Z.to_nat w) fitness 0 /\
    nth (Z.to_nat b) fitness 0 <= nth (Z.to_nat w) fitness 0.
Proof.
  intros k Hl. split; [now apply pair_winners_length|]. revert k Hl.
  induction t as [|a|a b r IH] using pairs_ind; intros k Hl i Hi; simpl in Hl; try lia.
  destruct k as [|k]; [lia|]. destruct i as [|i].
  - cbn. destruct (Qltb (nth (Z.to_nat a) fitness 0) (nth (Z.to_nat b) fitness 0)) eqn:E;
      [apply Qltb_lt in E|apply Qltb_ge in E]; (split; [auto|split; lra]).
  - specialize (IH k ltac:(lia) i ltac:(lia)). cbv zeta in *.
    replace (2 * S i)%nat with (S (S (2 * i))) by lia.
    replace (S (S (2 * i)) + 1)%nat with (S (S (2 * i + 1))) by lia. exact IH.
Qed.

Theorem uniform_tour_sound ps fitness rank ds child ds' :
  valid_draws ds -> uniform_tournament_crossover ps fitness rank ds = Some (child, ds') ->
  from_parents ps child /\
  exists t, length t = (2 * width ps)%nat /\ Forall (fun v => (0 <= v < Z.of_nat (length ps))%Z) t /\
    forall i, (i < width ps)%nat ->
      let a := nth (2 * i) t 0%Z in let b := nth (2 * i + 1) t 0%Z in
      exists w, (w = a \/ w = b) /\ nth i child 0%Z = gene ps (Z.to_nat w) i /\
        nth (Z.to_nat a) fitness 0 <= nth (Z.to_nat w) fitness 0 /\
        nth (Z.to_nat b) fitness 0 <= nth (Z.to_nat w) fitness 0.
Proof.
  intros Hv H. unfold uniform_tournament_crossover in H. minv H.
  destruct (random_sample_spec _ _ _ _ _ _ Hv E) as (Hl & Hr & _).
  destruct (pair_winners_spec fitness l (width ps) Hl) as (Hw1 & Hw2).
  assert (Hrange : forall i, (i < width ps)%nat -> (0 <= nth i (pair_winners fitness l) 0 < Z.of_nat (length ps))%Z).
  { intros i Hi. destruct (Hw2 i Hi) as ([Hw|Hw] & _); rewrite Hw; apply (proj1 (Forall_nth _ _) Hr); lia. }
  split; [apply from_choice_from_parents; auto|].
  exists l. split; [auto|]. split; [auto|]. intros i Hi. cbv zeta.
  destruct (Hw2 i Hi) as (Ha & Hb & Hc). eexists. split; [exact Ha|]. split; [|split; auto].
  unfold from_choice. rewrite build_nth by auto. reflexivity.
Qed.

Lemma pair_winners_repeat fitness z : forall k, pair_winners fitness (repeat z (2 * k)) = repeat z k.
Proof.
  induction k as [|k IHk]; [reflexivity|].
  replace (2 * S k)%nat with (S (S (2 * k))) by lia. cbn [repeat pair_winners]. rewrite IHk.
  destruct (Qltb _ _); reflexivity.
Qed.

(* every parent can donate: with both contestants of a locus equal to p the donor is p *)
Theorem uniform_tour_every_parent_can_donate ps fitness rank p :
  (p < length ps)%nat ->
  exists ds, valid_draws ds /\
    uniform_tournament_crossover ps fitness rank ds =
      Some (build (width ps) (fun i => gene ps p i), []).
Proof.
  intros Hp. set (n := Z.of_nat (length ps)). set (ch := repeat (Z.of_nat p) (2 * width ps)).
  assert (Hr : Forall (fun v => (0 <= v < n)%Z) ch).
  { apply Forall_forall. intros x Hx. apply repeat_spec in Hx. subst. unfold n. lia. }
  exists (map (DI n) ch). split; [now apply valid_draws_DI|].
  unfold uniform_tournament_crossover, bind, random_sample.
  pose proof (random_sample_complete n true [] ch [] Hr ltac:(discriminate)) as H. cbn [length Nat.add app] in H.
  unfold ch in H at 1. rewrite repeat_length, app_nil_r in H. fold n. rewrite H. unfold ret, ch. rewrite pair_winners_repeat.
  do 2 f_equal. apply map_ext_in. intros i Hi. apply in_seq in Hi.
  rewrite nth_repeat_lt, Nat2Z.id by lia. reflexivity.
Qed.

Lemma coins_all p b : (forall u, 0 <= u -> u < 1 -> Qltb u p = b) ->
  forall n ds cs ds', valid_draws ds -> coins p n ds = Some (cs, ds') -> cs = repeat b n /\ valid_draws ds'.
Proof.
  intros Hp. induction n as [|n IH]; intros ds cs ds' Hv H; cbn [coins] in H; minv H; [auto|].
  unfold flip_coin in E. minv E. apply popU_inv in E1 as (_ & Hu0 & Hu1 & Hv1); [|exact Hv].
  destruct (IH _ _ _ Hv1 E0) as (-> & Hv2). split; [|exact Hv2]. cbn [repeat]. f_equal. now apply Hp.
Qed.

Theorem flip_sound x p ds child ds' : flip_mutation x p ds = Some (child, ds') ->
  exists cs, length cs = length x /\ child = flip_child x cs.
Proof.
  intros H. unfold flip_mutation in H. rewrite coins_is_flips in H. minv H.
  exists l. split; [exact (flips_length _ _ _ _ _ E)|reflexivity].
Qed.

Lemma flip_all_same b x p ds child ds' : valid_draws ds -> (forall u, 0 <= u -> u < 1 -> Qltb u p = b) ->
  flip_mutation x p ds = Some (child, ds') ->
  child = build (length x) (fun i => if b then (1 - nth i x 0)%Z else nth i x 0%Z).
Proof.
  intros Hv Hp H. unfold flip_mutation in H. minv H.
  destruct (coins_all p b Hp _ _ _ _ Hv E) as (-> & _).
  unfold flip_child, build. apply map_ext_in. intros i Hi. apply in_seq in Hi.
  rewrite nth_repeat_lt by lia. reflexivity.
Qed.

Theorem flip_binary x cs : binary x -> binary (flip_child x cs) /\ length (flip_child x cs) = length x.
Proof.
  intros Hb. split; [|apply build_length]. apply Forall_forall. intros g Hin.
  destruct (In_nth _ _ 0%Z Hin) as (i & Hi & <-). unfold flip_child in *. rewrite build_length in Hi.
  rewrite build_nth by auto. unfold binary in Hb. rewrite Forall_forall in Hb.
  assert (Hx : nth i x 0%Z = 0%Z \/ nth i x 0%Z = 1%Z) by (apply Hb, nth_In; auto).
  destruct (nth i cs false); destruct Hx as [-> | ->]; auto.
Qed.

(* bit i is flipped exactly when the i-th coin (u_i < p) says so *)
Theorem flip_per_locus x cs i : (i < length x)%nat ->
  nth i (flip_child x cs) 0%Z = if nth i cs false then (1 - nth i x 0)%Z else nth i x 0%Z.
Proof. intros Hi. unfold flip_child. now rewrite build_nth. Qed.

(* how a pool entry's proba becomes the rate of flip_mutation; the k of the weak/average/strong presets is
   expected_mutation of Pools.v *)
Theorem rate_preset proba len : mutation_rate proba false len = proba / inject_Z (Z.of_nat len) /\
  mutation_rate proba true len = proba.
Proof. split; reflexivity. Qed.

Lemma flip_mutation_closed n x p ds child ds' : binary x /\ length x = n ->
  flip_mutation x p ds = Some (child, ds') -> binary child /\ length child = n.
Proof.
  intros (Hb & Hl) H. destruct (flip_sound _ _ _ _ _ H) as (cs & _ & ->).
  destruct (flip_binary x cs Hb). split; [assumption|lia].
Qed.

Definition pop_ok (n : nat) (pop : list row) : Prop :=
  Forall (fun x => binary x /\ length x = n) pop.

Lemma gather_ok n pop sel : pop_ok n pop ->
  Forall (fun v => (0 <= v < Z.of_nat (length pop))%Z) sel ->
  pop_ok n (gather [] pop sel).
Proof.
  intros Hp Hs. unfold pop_ok, gather in *. rewrite Forall_map. eapply Forall_impl; [|exact Hs].
  intros v Hv. cbn beta in *. rewrite Forall_forall in Hp. apply Hp. apply nth_In. unfold row in *. lia.
Qed.

Lemma gathered_child_ok n pop sel c : pop_ok n pop -> sel <> [] ->
  Forall (fun v => (0 <= v < Z.of_nat (length pop))%Z) sel ->
  from_parents (gather [] pop sel) c -> binary c /\ length c = n.
Proof.
  intros Hp Hne Hr Hfp. pose proof (gather_ok n pop sel Hp Hr) as Hg. unfold pop_ok in Hg.
  assert (Hw : width (gather [] pop sel) = n).
  { unfold width. destruct sel as [|v l']; [congruence|]. inversion Hg; subst. tauto. }
  split; [|destruct Hfp; lia]. apply (from_parents_binary (gather [] pop sel)); [|exact Hfp].
  intros p Hp'. rewrite Hw. rewrite Forall_forall in Hg. now apply Hg, nth_In.
Qed.

Theorem new_individ_shape selection tour quantity crossover proba is_const pop fscale frank n ds child ds' :
  pop_ok n pop -> (0 < quantity)%nat ->
  (forall ds r ds', selection fscale frank tour quantity ds = Some (r, ds') ->
      length r = quantity /\ Forall (fun v => (0 <= v < Z.of_nat (length pop))%Z) r) ->
  (forall ps f r ds c ds', crossover ps f r ds = Some (c, ds') -> from_parents ps c) ->
  new_individ selection tour quantity crossover proba is_const pop fscale frank ds = Some (child, ds') ->
  binary child /\ length child = n.
Proof.
  intros Hp Hq Hsel Hcx H. unfold new_individ in H. minv H.
  destruct (Hsel _ _ _ E) as (Hl & Hr).
  apply (flip_mutation_closed n r _ _ _ _) with (2 := H).
  apply (gathered_child_ok n pop l r Hp); [destruct l; [simpl in Hl; lia|discriminate]|exact Hr|eauto].
Qed.

(* a generation, as far as its shape goes: ANY pop_size rows satisfying row_ok and, with elitism, the last slot
   overwritten by ANY row satisfying row_ok.  ga_step does not say that the children come from new_individ over
   [pop] nor that [best] is an earlier member; that every outcome of new_individ over a row_ok population
   satisfies row_ok is new_individ_row_ok (and PoolsClosed.new_individ_closed for the pools). *)
Definition row_ok (n : nat) (x : row) : Prop := binary x /\ length x = n.

Inductive ga_step (n pop_size : nat) : list row -> list row -> Prop :=
| ga_step_plain pop children :
    length children = pop_size -> Forall (row_ok n) children -> ga_step n pop_size pop children
| ga_step_elite pop children best :
    length children = pop_size -> Forall (row_ok n) children -> row_ok n best ->
    ga_step n pop_size pop (removelast children ++ [best]).

Inductive ga_run (n pop_size : nat) : list row -> list row -> Prop :=
| ga_run_nil pop : ga_run n pop_size pop pop
| ga_run_cons pop pop1 pop2 : ga_step n pop_size pop pop1 -> ga_run n pop_size pop1 pop2 -> ga_run n pop_size pop pop2.

Lemma removelast_length' {A} (xs : list A) : xs <> [] -> length (removelast xs) = (length xs - 1)%nat.
Proof.
  induction xs as [|x xs IH]; intros H; [congruence|]. destruct xs as [|y xs]; [reflexivity|].
  cbn [removelast length] in *. rewrite IH by congruence. simpl. lia.
Qed.

Theorem ga_run_shape n pop_size pop pop' : (0 < pop_size)%nat ->
  ga_run n pop_size pop pop' -> Forall (row_ok n) pop -> length pop = pop_size ->
  Forall (row_ok n) pop' /\ length pop' = pop_size.
Proof.
  intros Hp H. induction H as [|pop pop1 pop2 Hs Hr IH]; intros Hok Hl; [auto|]. apply IH.
  - destruct Hs as [pop children Hlc Hc|pop children best Hlc Hc Hb]; auto.
    apply Forall_app. split; [apply Forall_removelast; auto|constructor; auto].
  - destruct Hs as [pop children Hlc Hc|pop children best Hlc Hc Hb]; auto.
    rewrite app_length, removelast_length' by (destruct children; simpl in *; [lia|congruence]). simpl. lia.
Qed.

Corollary new_individ_row_ok selection tour quantity crossover proba is_const pop fscale frank n ds child ds' :
  Forall (row_ok n) pop -> (0 < quantity)%nat ->
  (forall ds r ds', selection fscale frank tour quantity ds = Some (r, ds') ->
      length r = quantity /\ Forall (fun v => (0 <= v < Z.of_nat (length pop))%Z) r) ->
  (forall ps f r ds c ds', crossover ps f r ds = Some (c, ds') -> from_parents ps c) ->
  new_individ selection tour quantity crossover proba is_const pop fscale frank ds = Some (child, ds') ->
  row_ok n child.
Proof. intros. unfold row_ok. eapply new_individ_shape; eauto. Qed.
