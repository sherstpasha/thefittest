(* CodeEqNewIndivid.v — the trial vector / offspring of ONE individual (`_get_new_individ_g` of SHADE, SHAGA and
   DifferentialEvolution; jDE inherits DifferentialEvolution's), translated on every run as methods (gen/GenCode.v), is the
   composition the models state: strategy / selection, then crossover, then repair / mutation, each with the arguments named.
   These are the bodies of the oracles `sh_trials`, `jd_trials`, `sg_trials` of the generation step (CodeEqAdaptStep.v). *)
From TF Require Import Py PyLemmas RandomPrimsProofs BinaryOps DEOps C06Check CodeEqC06 CodeEqC07 CodeEqC11.
From TFG Require Import GenCode.
Open Scope Z_scope.

(* SHADE: current-to-pbest/1 with archive, binomial crossover, repair towards the parent *)
Theorem code_SHADE_get_new_individ_g pop pbest archive l r cur F CR ds :
  valid_draws ds -> (0 < length pop)%nat ->
  uniform_rows (length cur) pop -> uniform_rows (length cur) archive ->
  Forall (fun v => 0 <= v < Z.of_nat (length pop)) pbest ->
  py_SHADE_get_new_individ_g pop pbest archive l r cur F CR ds = shade_new_individ cur pop pbest F CR archive l r ds.
Proof.
  intros Hv Hp Hu Ha Hb. apply bind_congr; [now apply code_current_to_pbest|]. intros m ds1 _.
  apply bind_congr; [apply code_binomial|]. intros c ds2 _. cbv zeta. now rewrite code_bounds_control_mean.
Qed.

(* DifferentialEvolution / jDE: the configured strategy (whatever function the pool holds), binomial crossover, clamp to the box *)
Theorem code_DE_get_new_individ_g (mf : list Q -> list Q -> list (list Q) -> Q -> M (list Q)) best pop l r cur F CR ds :
  py_DE_get_new_individ_g mf best pop l r cur F CR ds
  = bind (mf cur best pop F) (fun m => bind (binomial cur m CR) (fun c => ret (bounds_control c l r))) ds.
Proof.
  apply bind_congr; [reflexivity|]. intros m ds1 _.
  apply bind_congr; [apply code_binomial|]. intros c ds2 _. cbv zeta. now rewrite code_bounds_control.
Qed.

(* ... hence, for a strategy function that is the model's strategy `code` on these draws, the model's de_new_individ *)
Theorem code_DE_get_new_individ_g_strategy mf (code : nat) best pop l r cur F CR ds :
  mf cur best pop F ds = de_mutation code cur best pop F ds ->
  py_DE_get_new_individ_g mf best pop l r cur F CR ds = de_new_individ code cur best pop F CR l r ds.
Proof. intro H. rewrite code_DE_get_new_individ_g. now apply bind_congr. Qed.

(* a named strategy of the pool, with the translated strategy function in the function position *)
Theorem code_DE_new_individ_rand_1 best pop l r cur F CR ds :
  valid_draws ds -> (3 <= length pop)%nat -> uniform_rows (length best) pop -> length cur = length best ->
  py_DE_get_new_individ_g py_rand_1 best pop l r cur F CR ds = de_new_individ 1 cur best pop F CR l r ds.
Proof. intros. apply code_DE_get_new_individ_g_strategy. now apply code_rand_1. Qed.

(* SHAGA: second parent by a tournament of 2 over the raw fitness, binomial crossover with the individual, flip mutation at MR *)
Theorem code_SHAGA_get_new_individ_g fitness pop x MR CR ds :
  valid_draws ds -> (2 <= length fitness)%nat ->
  py_SHAGA_get_new_individ_g fitness pop x MR CR ds = shaga_new_individ pop fitness x MR CR ds.
Proof.
  intros Hv H2. apply bind_congr; [exact (code_tournament_selection fitness fitness 2 1 ds Hv H2)|].
  intros sel ds1 E. destruct (tournament_selection_spec fitness 2 1 ds sel ds1 Hv ltac:(lia) E) as [_ Hr].
  cbv zeta. rewrite getZ_0. unfold getR. rewrite pyidx_nonneg.
  - apply bind_congr; [apply code_binomialGA|]. intros c ds2 _. rewrite bind_ret_r. apply code_flip_mutation.
  - destruct Hr as [|w ws [[Hw _] _] _]; [reflexivity|exact Hw].
Qed.

Lemma gatherR_gather {A} (m : list (list A)) idx : Forall (fun v => 0 <= v) idx -> gatherR m idx = gather [] m idx.
Proof.
  intro H. apply map_ext_Forall. eapply Forall_impl; [|exact H]. intros i Hi.
  unfold getR. now rewrite pyidx_nonneg.
Qed.
Lemma gatherQ_is_gather (f : list Q) : gatherQ f = gather 0%Q f.
Proof. reflexivity. Qed.
Lemma gatherQz_gather (f : list Q) idx : Forall (fun v => 0 <= v) idx -> gatherQz f idx = gather 0%Q f idx.
Proof. rewrite <- gatherQ_is_gather. apply gatherQz_nonneg. Qed.

(* PDPGA: one parent of the selected ones is remembered (its raw fitness is what "success" is later measured against); the draw is
   one index below the number of selected parents *)
Lemma code_PDPGA_choice_parent {T} (f : list Q) (K : Q -> M T) ds :
  bind (py_PDPGA_choice_parent f) K ds = bind (popI (zlen f)) (fun i => K (getQ f i)) ds.
Proof.
  unfold py_PDPGA_choice_parent. cbv zeta. rewrite bind_assoc, code_pick_one.
  apply bind_congr; [reflexivity|]. intros v ds1 _. now rewrite getZ_0.
Qed.

(* GeneticAlgorithm._get_new_individ_g (SelfCGA inherits it) and PDPGA's: the three pool entries (function + configured parameters)
   are parameters of the generated definition; for whatever functions the pools hold, the offspring is: select `quantity` parents
   with the selection's tournament size, cross over (population, scaled fitness, ranks of the selected), flip-mutate at the entry's
   rate (divided by the string length unless the entry says the rate is constant) *)
Section GA.
Variables (selpy : list Q -> list Q -> Z -> Z -> M (list Z)) (sel : list Q -> list Q -> nat -> nat -> M (list Z)) (tour q : nat)
  (cxpy cx : list (list Z) -> list Q -> list Q -> M (list Z)) (mupy : list Z -> Q -> M (list Z))
  (proba : Q) (const : bool) (fs fr fit : list Q) (pop : list (list Z)) (ds : list draw).
Hypothesis Hsel : selpy fs fr (Z.of_nat tour) (Z.of_nat q) ds = sel fs fr tour q ds.
Hypothesis Hnn : forall r ds', sel fs fr tour q ds = Some (r, ds') -> Forall (fun v => 0 <= v) r.
Hypothesis Hcx : forall a b c ds', cxpy a b c ds' = cx a b c ds'.
Hypothesis Hmu : forall c p ds', mupy c p ds' = flip_mutation c p ds'.

Lemma code_cross_mutate {T} (K : list Z -> M T) r ds1 : Forall (fun v => 0 <= v) r ->
  bind (cxpy (gatherR pop r) (gatherQz fs r) (gatherQz fr r)) (fun c =>
    bind (mupy c (if const then proba else (proba / ZtoQ (zlen c))%Q)) K) ds1
  = bind (cx (gather [] pop r) (gather 0%Q fs r) (gather 0%Q fr r)) (fun c =>
    bind (flip_mutation c (mutation_rate proba const (length c))) K) ds1.
Proof.
  intro Hr. rewrite (gatherR_gather pop r Hr), !(gatherQz_gather _ r Hr).
  apply bind_congr; [apply Hcx|]. intros c ds2 _. apply bind_congr; [|reflexivity].
  rewrite Hmu. unfold mutation_rate, zlen, ZtoQ. now destruct const.
Qed.

Theorem code_GA_get_new_individ_g :
  py_GA_get_new_individ_g selpy (Z.of_nat tour) cxpy (Z.of_nat q) mupy proba const fs fr pop ds
  = new_individ sel tour q cx proba const pop fs fr ds.
Proof.
  apply bind_congr; [exact Hsel|]. intros r ds1 E. cbv zeta. rewrite code_cross_mutate by eauto.
  apply bind_congr; [reflexivity|]. intros. apply bind_ret_r.
Qed.

Theorem code_PDPGA_get_new_individ_g :
  py_PDPGA_get_new_individ_g selpy (Z.of_nat tour) cxpy (Z.of_nat q) mupy proba const fs fr fit pop ds
  = bind (sel fs fr tour q) (fun r =>
      bind (popI (Z.of_nat (length r))) (fun i =>
        bind (cx (gather [] pop r) (gather 0%Q fs r) (gather 0%Q fr r)) (fun c =>
          bind (flip_mutation c (mutation_rate proba const (length c))) (fun o =>
            ret (getQ (gather 0%Q fit r) i, o))))) ds.
Proof.
  apply bind_congr; [exact Hsel|]. intros r ds1 E. pose proof (Hnn r ds1 E) as Hr. cbv zeta.
  rewrite code_PDPGA_choice_parent, (gatherQz_gather fit r Hr). unfold zlen, gather at 1. rewrite map_length.
  apply bind_congr; [reflexivity|]. intros i ds2 _. now apply code_cross_mutate.
Qed.

(* ... whose offspring component is the model's new_individ_pdp (the remembered value is not part of that model) *)
Theorem code_PDPGA_offspring :
  match py_PDPGA_get_new_individ_g selpy (Z.of_nat tour) cxpy (Z.of_nat q) mupy proba const fs fr fit pop ds with
  | Some ((_, child), ds') => new_individ_pdp sel tour q cx proba const pop fs fr ds = Some (child, ds')
  | None => new_individ_pdp sel tour q cx proba const pop fs fr ds = None
  end.
Proof.
  rewrite code_PDPGA_get_new_individ_g. unfold new_individ_pdp, bind.
  destruct (sel fs fr tour q ds) as [[r ds1]|]; [|reflexivity].
  destruct (popI _ ds1) as [[i ds2]|]; [|reflexivity].
  destruct (cx _ _ _ ds2) as [[c ds3]|]; [|reflexivity].
  now destruct (flip_mutation c _ ds3) as [[o ds4]|].
Qed.
End GA.
