(* CodeEqGreedy.v — the greedy family (DifferentialEvolution's overrides of _get_init_population, _get_new_population and
   _from_population_g_to_fitness, generated into coq/gen/GenLoop.v): `EALoop.step Greedy` / `EALoop.fit Greedy` simulate
   the generated run — trial evaluation, the `>=` replacement mask, record, elitism — on every field the code keeps. *)
From TF Require Import Py EALoop EALoopProofs CodeEqLoop CodeEqStep.
From TFG Require Import GenLoop.
Open Scope Z_scope.

Section Greedy.
Variables G P : Type.
Variables (dG : G) (dP : P).
Variable g2p : G -> P.
Variable f : P -> Q.
Variable par_value : EvolutionaryAlgorithm G P -> list P -> list Q.
Let indiv := indiv G P.
Let EA := EvolutionaryAlgorithm G P.
Notation sim := (sim G P dG dP).
Notation nf_of := (nf_of G P f).

(* DE's generation step with the dispatch resolved: _update_data is the base class's, _adapt touches no field of the record.
   The term is CodeEqStep's `record_elite`; `unfold de_from` before one of its lemmas is applied keeps the two sides syntactically
   equal (see there). *)
Definition de_from := py_DifferentialEvolution__from_population_g_to_fitness G P (upd_data G P dG dP) (fun s => s).
Definition de_init (gs0 : list G) :=
  py_DifferentialEvolution__get_init_population G P (ff P f) par_value (getph G P g2p) (fun s => set_pop_g G P s gs0).
Variable trials : EA -> list G.          (* the trial vectors (variation operators: C07) *)
Definition de_new := py_DifferentialEvolution__get_new_population G P (ff P f) par_value (getph G P g2p) trials.

(* CodeEqStep.loaded, under the name the C02 statements use *)
Definition with_pop (self : EA) (p : list indiv) (c : Z) : EA :=
  set_ea_fitness_i G P (map ifit p) (set_ea_calls G P (ea_calls G P self + c)
    (set_ea_population_ph_i G P (map iph p) (set_ea_population_g_i G P (map ig p) self))).

Lemma mask_write_greedy {B} (h : indiv -> B) : forall (batch p : list indiv),
  mask_write (geq_mask (map ifit batch) (map ifit p)) (map h batch) (map h p) = map h (greedy G P batch p).
Proof.
  induction batch as [|t ts IH]; intros [|q qs]; cbn [map greedy geq_mask combine mask_write]; try reflexivity.
  cbn [fst snd]. destruct (Qle_bool (ifit q) (ifit t)); cbn [map]; f_equal; apply IH.
Qed.

Lemma greedy_nonempty batch p : p <> [] -> greedy G P batch p <> [].
Proof. destruct batch, p; cbn; congruence. Qed.

Lemma de_init_eq (self : EA) (gs0 : list G) : ea_n_jobs G P self <= 1 ->
  de_init gs0 self = with_pop self (map (eval G P g2p (nf_of self)) gs0) (Z.of_nat (length gs0)).
Proof.
  intro Hnj. rewrite <- (loaded_eval G P g2p f).
  transitivity (let gf := py_EvolutionaryAlgorithm__get_fitness G P (ff P f) par_value
                            (set_ea_population_ph_i G P (map g2p gs0) (set_ea_population_g_i G P gs0 self)) (map g2p gs0) in
                set_ea_fitness_i G P (snd gf) (fst gf)).
  - unfold de_init, set_pop_g, getph. eval_ea. reflexivity.
  - cbv zeta. rewrite get_fitness_serial by exact Hnj. reflexivity.
Qed.

Lemma de_new_eq (self : EA) (st : state G P) : sim self st -> ea_n_jobs G P self <= 1 ->
  de_new self = with_pop self (greedy G P (map (eval G P g2p (nf_of self)) (trials self)) (pop st))
                         (Z.of_nat (length (map (eval G P g2p (nf_of self)) (trials self)))).
Proof.
  intros S Hnj. set (batch := map (eval G P g2p (nf_of self)) (trials self)).
  transitivity (let gf := py_EvolutionaryAlgorithm__get_fitness G P (ff P f) par_value self (map g2p (trials self)) in
                let mask := geq_mask (snd gf) (ea_fitness_i G P self) in
                set_ea_fitness_i G P (mask_write mask (snd gf) (ea_fitness_i G P self))
                  (set_ea_population_ph_i G P (mask_write mask (map g2p (trials self)) (ea_population_ph_i G P self))
                     (set_ea_population_g_i G P (mask_write mask (trials self) (ea_population_g_i G P self)) (fst gf)))).
  - unfold de_new, getph. eval_ea. reflexivity.
  - cbv zeta. rewrite get_fitness_serial by exact Hnj. cbn [fst snd].
    assert (Hbg : trials self = map ig batch) by (unfold batch; rewrite map_map; cbn; symmetry; apply map_id).
    assert (Hbp : map g2p (trials self) = map iph batch) by (unfold batch; rewrite map_map; reflexivity).
    assert (Hbf : smul (ZtoQ (ea_sign G P self)) (map f (map g2p (trials self))) = map ifit batch).
    { unfold batch, smul. rewrite !map_map. reflexivity. }
    rewrite Hbf, Hbp. rewrite Hbg at 1.
    rewrite (sim_g _ _ _ _ _ _ S), (sim_ph _ _ _ _ _ _ S), (sim_fit _ _ _ _ _ _ S), !mask_write_greedy.
    unfold with_pop, zlen. now rewrite !map_length.
Qed.

Theorem code_step_greedy_first (self : EA) (st : state G P) (gs0 : list G) :
  sim self st -> gs0 <> [] -> ea_n_jobs G P self <= 1 ->
  sim (de_from (de_init gs0 self))
      (step G P g2p (nf_of self) Greedy (ea_elitism G P self) (ea_keep_history G P self) true st gs0).
Proof.
  intros S Hgs Hnj. rewrite (de_init_eq self gs0 Hnj), step_finish, <- (map_length (eval G P g2p (nf_of self)) gs0).
  unfold de_from. apply (finish_sim G P dG dP); [exact S|]. now apply eval_nonempty.
Qed.

Theorem code_step_greedy (self : EA) (st : state G P) :
  sim self st -> pop st <> [] -> ea_n_jobs G P self <= 1 ->
  sim (de_from (de_new self))
      (step G P g2p (nf_of self) Greedy (ea_elitism G P self) (ea_keep_history G P self) false st (trials self)).
Proof.
  intros S Hp Hnj. rewrite (de_new_eq self st S Hnj), step_finish.
  unfold de_from. apply (finish_sim G P dG dP); [exact S|]. now apply greedy_nonempty.
Qed.

Variable var : state G P -> list G.

(* EvolutionaryAlgorithm.fit with the dispatch resolved to DifferentialEvolution's overrides *)
Theorem code_fit_greedy (self0 : EA) (gs0 : list G) :
  CodeEqStep.sim G P dG dP self0 (init_state G P) -> gs0 <> [] ->
  ea_n_jobs G P self0 <= 1 -> ea_aim G P self0 <> NegInf -> fst (ea_on_generation G P self0) = true ->
  (forall n, ea_no_increase_num G P self0 = Some n -> 0 <= n) ->
  (forall s st, sim s st -> trials s = var st) ->
  sim (py_EvolutionaryAlgorithm_fit G P (de_init gs0) de_new de_from self0)
      (fit G P g2p (nf_of self0) Greedy (ea_elitism G P self0) (ea_keep_history G P self0)
           (abs_aim (ea_aim G P self0)) (abs_nin (ea_no_increase_num G P self0)) var (Z.to_nat (ea_iters G P self0)) gs0).
Proof.
  intros S0 Hgs Hnj Haim Hcb Hnin Hvar.
  apply (code_run G P dG dP g2p f var Greedy self0 Haim Hcb Hnin).
  - cbv zeta. split; [exact (code_step_greedy_first self0 _ gs0 S0 Hgs Hnj)|].
    rewrite (de_init_eq self0 gs0 Hnj), step_finish.
    split; [unfold de_from; apply (record_elite_consts G P dG dP)|]. apply finish_pop_nonempty. now apply eval_nonempty.
  - intros s st S C Hp. cbv zeta.
    assert (Hnj' : ea_n_jobs G P s <= 1) by (destruct C as (_ & _ & _ & _ & _ & -> & _); exact Hnj).
    rewrite <- (step_consts G P g2p f _ s self0 _ _ _ C), <- (Hvar s st S).
    split; [now apply code_step_greedy|]. rewrite (de_new_eq s st S Hnj'), step_finish.
    split; [unfold de_from; apply (record_elite_consts G P dG dP)|]. apply finish_pop_nonempty. now apply greedy_nonempty.
Qed.
End Greedy.
