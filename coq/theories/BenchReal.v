(* BenchReal.v — C20 (b), IDEALISED: exact rational arithmetic (Q), hand transcription of the
   formulas of the polynomial basic functions of _optproblems.py and of the shift wrapper.
   Not tied to the code by a translator; the floating-point implementation is compared with
   these facts only by the sampled checks of harness/props/c20.py (optimum / lower bound).

     wsq w x        = sum_i w_i * x_i^2          Sphere (w = 1), HighConditionedElliptic
                                                 (w_i = 10^(6 (i-1)/(D-1)) > 0, kept abstract)
     schwefel_1_2 x = sum_i (sum_{j<=i} x_j)^2   Schwefe1_2
     shifted f o b x = f (x - o) + b             TestShiftedFunction.__call__  (F1, F2)            *)
From TF Require Import Base.
Open Scope Q_scope.

Fixpoint wsq (w x : list Q) : Q :=
  match w, x with
  | wi :: w', xi :: x' => wi * (xi * xi) + wsq w' x'
  | _, _ => 0
  end.

Definition sphere (x : list Q) : Q := wsq (map (fun _ => 1) x) x.

Fixpoint prefix_sums (acc : Q) (x : list Q) : list Q :=
  match x with
  | [] => []
  | xi :: x' => (acc + xi) :: prefix_sums (acc + xi) x'
  end.
Definition schwefel_1_2 (x : list Q) : Q := sphere (prefix_sums 0 x).

Fixpoint vsub (x o : list Q) : list Q :=
  match x, o with
  | xi :: x', oi :: o' => (xi - oi) :: vsub x' o'
  | _, _ => []
  end.
Definition shifted (f : list Q -> Q) (o : list Q) (bias : Q) (x : list Q) : Q := f (vsub x o) + bias.

Definition all_zero (x : list Q) : Prop := Forall (fun a => a == 0) x.

Lemma sq_nonneg (a : Q) : 0 <= a * a.
Proof. nra. Qed.

Lemma Forall_lt_le (l : list Q) : Forall (fun a => 0 < a) l -> Forall (fun a => 0 <= a) l.
Proof. apply Forall_impl. intros a Ha. lra. Qed.

Lemma wsq_nonneg : forall w x, Forall (fun a => 0 <= a) w -> 0 <= wsq w x.
Proof.
  induction w as [|wi w IH]; intros [|xi x] H; simpl; try apply Qle_refl.
  inversion H as [|? ? Hw Hr]; subst. specialize (IH x Hr). pose proof (sq_nonneg xi). nra.
Qed.

Lemma wsq_zero_at_zero : forall w x, all_zero x -> wsq w x == 0.
Proof.
  induction w as [|wi w IH]; intros [|xi x] H; simpl; try reflexivity.
  inversion H as [|? ? Hx Hr]; subst. rewrite (IH x Hr), Hx. ring.
Qed.

Lemma wsq_zero_only : forall w x, Forall (fun a => 0 < a) w -> length w = length x ->
  wsq w x == 0 -> all_zero x.
Proof.
  induction w as [|wi w IH]; intros [|xi x] Hw Hl H; simpl in *; try discriminate; [constructor|].
  inversion Hw as [|? ? Hwi Hr]; subst.
  assert (Hnn : 0 <= wsq w x) by (apply wsq_nonneg, Forall_lt_le, Hr).
  pose proof (sq_nonneg xi) as Hs.
  assert (Hz : wi * (xi * xi) == 0) by nra.
  constructor; [|apply IH; auto; nra].
  apply Qmult_integral in Hz as [Hz|Hz]; [lra|].
  apply Qmult_integral in Hz as [Hz|Hz]; assumption.
Qed.

Lemma ones_pos (x : list Q) : Forall (fun a => 0 < a) (map (fun _ => 1) x).
Proof. induction x; simpl; constructor; auto. reflexivity. Qed.
Lemma ones_nonneg (x : list Q) : Forall (fun a => 0 <= a) (map (fun _ => 1) x).
Proof. apply Forall_lt_le, ones_pos. Qed.

Theorem sphere_nonneg x : 0 <= sphere x.
Proof. apply wsq_nonneg, ones_nonneg. Qed.
Theorem sphere_zero_iff x : sphere x == 0 <-> all_zero x.
Proof.
  split.
  - apply wsq_zero_only; [apply ones_pos|apply map_length].
  - apply wsq_zero_at_zero.
Qed.

Theorem schwefel_1_2_nonneg x : 0 <= schwefel_1_2 x.
Proof. apply sphere_nonneg. Qed.

Lemma prefix_sums_zero : forall x acc, acc == 0 -> all_zero x -> all_zero (prefix_sums acc x).
Proof.
  induction x as [|xi x IH]; intros acc Ha H; simpl; [constructor|].
  inversion H as [|? ? Hx Hr]; subst.
  assert (acc + xi == 0) by (rewrite Ha, Hx; reflexivity).
  constructor; [assumption|apply IH; assumption].
Qed.
Theorem schwefel_1_2_zero_at_zero x : all_zero x -> schwefel_1_2 x == 0.
Proof. intro H. apply sphere_zero_iff. apply prefix_sums_zero; [reflexivity|assumption]. Qed.

Lemma prefix_sums_zero_only : forall x acc, acc == 0 -> all_zero (prefix_sums acc x) -> all_zero x.
Proof.
  induction x as [|xi x IH]; intros acc Ha H; simpl in *; [constructor|].
  inversion H as [|? ? Hx Hr]; subst.
  constructor; [lra|]. apply (IH (acc + xi)); assumption.
Qed.
Theorem schwefel_1_2_zero_iff x : schwefel_1_2 x == 0 <-> all_zero x.
Proof.
  split; [|apply schwefel_1_2_zero_at_zero].
  intro H. apply sphere_zero_iff in H. apply (prefix_sums_zero_only x 0); [reflexivity|assumption].
Qed.

Lemma vsub_self : forall o, all_zero (vsub o o).
Proof. induction o as [|a o IH]; simpl; constructor; [ring|assumption]. Qed.

Lemma vsub_zero_only : forall x o, length x = length o -> all_zero (vsub x o) ->
  Forall2 (fun a b => a == b) x o.
Proof.
  induction x as [|xi x IH]; intros [|oi o] Hl H; simpl in *; try discriminate; constructor.
  - inversion H; subst. lra.
  - inversion H; subst. apply IH; auto.
Qed.

Section Shifted.
  Variable f : list Q -> Q.
  Hypothesis f_nonneg : forall z, 0 <= f z.
  Hypothesis f_zero : forall z, all_zero z -> f z == 0.

  Theorem shifted_lower_bound o bias x : bias <= shifted f o bias x.
  Proof. unfold shifted. pose proof (f_nonneg (vsub x o)). lra. Qed.

  Theorem shifted_optimum o bias : shifted f o bias o == bias.
  Proof. unfold shifted. rewrite (f_zero _ (vsub_self o)). ring. Qed.
End Shifted.
