(* NetForwardProofs2.v — C12, part 2: the scheduled forward pass equals the schedule-independent
   reference evaluation of the graph (C12_forward_is_ref), and consequently does not depend on the
   order of the connection rows (C12_connection_order_irrelevant).
   Addition of node values is assumed commutative and associative (Leibniz equality): true of
   Qc, Z, R — not of IEEE floats, which is the stated gap of the exact model.                    *)
From TF Require Import Base Net NetAlgebra NetOrder NetForward NetProofs NetOrderProofs
     NetForwardProofs.
From Coq Require Import Permutation Sorted.
Local Open Scope nat_scope.

Lemma combine_map2 {A B C} (f : A -> B) (g : A -> C) (l : list A) :
  combine (map f l) (map g l) = map (fun e => (f e, g e)) l.
Proof. induction l as [|h t IH]; simpl; auto. f_equal; auto. Qed.
Lemma In_combine_self {A B} (h : A -> B) (l : list A) a :
  In a l -> In (a, h a) (combine l (map h l)).
Proof. induction l as [|x t IH]; simpl; [tauto|]. intros [->|H]; auto. Qed.
Lemma NoDup_map_filter (f : nat * nat -> bool) (a : list (nat * nat)) :
  NoDup (map fst a) -> NoDup (map fst (filter f a)).
Proof.
  induction a as [|h t IH]; simpl; intro H; auto. inversion H; subst.
  destruct (f h); simpl; auto. constructor; auto.
  intro Hc. apply H2. apply in_map_iff in Hc. destruct Hc as [q [E Hq]].
  apply filter_In in Hq. rewrite <- E. apply in_map. tauto.
Qed.
Lemma fold_left_perm {A B} (f : A -> B -> A) :
  (forall a x y, f (f a x) y = f (f a y) x) ->
  forall l l', Permutation l l' -> forall a, fold_left f l a = fold_left f l' a.
Proof.
  intros Hf l l' P. induction P; intro a; simpl; auto.
  - rewrite Hf. auto.
  - rewrite IHP1. auto.
Qed.

Lemma sort_nat_perm l : Permutation (sort_nat l) l.
Proof. apply (sort_by_perm Nat.leb). Qed.
Lemma sort_nat_sorted l : StronglySorted le (sort_nat l).
Proof.
  apply (sort_by_sorted le Nat.le_trans Nat.leb); intros x y.
  - apply Nat.leb_le.
  - intro H. apply Nat.leb_gt in H. lia.
Qed.
Lemma sm_nodes_In n u :
  NoDup (map fst (n_act n)) -> (In u (sm_nodes n) <-> alookup u (n_act n) = Some 5).
Proof.
  intro ND. unfold sm_nodes. rewrite (sort_by_In Nat.leb), (alookup_In u 5 (n_act n) ND), In_fst. split.
  - intros [c H]. apply filter_In in H. destruct H as [H Hc].
    simpl in Hc. apply Nat.eqb_eq in Hc. subst. auto.
  - intro H. exists 5. apply filter_In. split; auto.
Qed.

Section RefProofs.
  Variables K V : Type.
  Variable kzero : K.
  Variable vzero : V.
  Variable vadd : V -> V -> V.
  Variable vscale : K -> V -> V.
  Variable act : nat -> V -> V.
  Variable smx : list V -> list V.
  Hypothesis smx_length : forall l, length (smx l) = length l.
  Hypothesis vadd_comm : forall a b, vadd a b = vadd b a.
  Hypothesis vadd_assoc : forall a b c, vadd a (vadd b c) = vadd (vadd a b) c.

  Notation rd := (NetForward.rd V vzero).
  Notation dot := (NetForward.dot K V vzero vadd vscale).
  Notation write_all := (NetForward.write_all V).
  Notation apply_act := (NetForward.apply_act V vzero act smx).
  Notation forward_group := (NetForward.forward_group K V kzero vzero vadd vscale act smx).
  Notation forward := (NetForward.forward K V kzero vzero vadd vscale act smx).
  Notation init_buf := (NetForward.init_buf V vzero).
  Notation forward2d := (NetForward.forward2d K V kzero vzero vadd vscale act smx).
  Notation pre_of := (NetForward.pre_of K V kzero vzero vadd vscale).
  Notation ref_val := (NetForward.ref_val K V kzero vzero vadd vscale act smx).
  Notation ref_eval := (NetForward.ref_eval K V kzero vzero vadd vscale act smx).

  Lemma vadd_swap a x y : vadd (vadd a x) y = vadd (vadd a y) x.
  Proof. rewrite <- !vadd_assoc. f_equal. apply vadd_comm. Qed.
  Lemma dot_perm ws vs ws' vs' :
    Permutation (combine ws vs) (combine ws' vs') -> dot ws vs = dot ws' vs'.
  Proof.
    intro P. unfold NetForward.dot. apply fold_left_perm; auto.
    intros a p q. apply vadd_swap.
  Qed.

  Lemma dot_entries w (val : nat -> V) con t :
    dot (map (fun i => nth i w kzero) (map snd (entries con t))) (map val (map fst (entries con t)))
    = pre_of con w val t.
  Proof.
    unfold NetForward.pre_of. rewrite !map_map. apply dot_perm.
    rewrite !combine_map2. apply Permutation_map. unfold entries. apply sort_src_perm.
  Qed.

  Lemma pre_of_ext w con (val val' : nat -> V) t :
    (forall a, In (a, t) con -> val a = val' a) -> pre_of con w val t = pre_of con w val' t.
  Proof.
    intro H. unfold NetForward.pre_of. f_equal. apply map_ext_in. intros e He. apply H.
    apply srcs_of_In. rewrite <- (entries_from_srcs 0). apply in_map. auto.
  Qed.

  (* all softmax nodes have the same sorted source tuple (hence sit in one schedule group) *)
  Definition sm_same (n : net) : Prop :=
    forall u v, alookup u (n_act n) = Some 5 -> alookup v (n_act n) = Some 5 ->
                key_of (n_con n) u = key_of (n_con n) v.

  (* one unfolding of the reference value of v looks at the weighted sums into v, or, for a
     softmax node, into all softmax nodes *)
  Lemma ref_val_step n n' w w' x f f' v :
    n_in n' = n_in n -> n_act n' = n_act n ->
    (forall u, u = v \/ (alookup v (n_act n) = Some 5 /\ In u (sm_nodes n)) ->
       pre_of (n_con n') w' (ref_val n' w' x f') u = pre_of (n_con n) w (ref_val n w x f) u) ->
    ref_val n' w' x (S f') v = ref_val n w x (S f) v.
  Proof.
    intros Ei Ea H. simpl. unfold sm_nodes. rewrite Ei, Ea. fold (sm_nodes n).
    destruct (mem v (n_in n)); auto. destruct (alookup v (n_act n)) as [c|] eqn:Ec; auto.
    destruct (c =? 5) eqn:E5.
    - apply Nat.eqb_eq in E5. subst c. f_equal. f_equal. apply map_ext_in. intros u Hu. apply H. auto.
    - f_equal. apply H. auto.
  Qed.

  Lemma ref_val_stable n w x rank :
    Layered n -> sm_same n -> rank_ok n rank ->
    forall f1 f2 v, rank v < f1 -> rank v < f2 -> ref_val n w x f1 v = ref_val n w x f2 v.
  Proof.
    intros L SM [_ [_ [_ R4]]].
    induction f1 as [|f1 IH]; intros f2 v H1 H2; [lia|]. destruct f2 as [|f2]; [lia|].
    apply ref_val_step; auto. intros u Hu. apply pre_of_ext. intros a Ha.
    assert (Hav : In (a, v) (n_con n)).
    { destruct Hu as [->|[Ec Hu]]; auto. apply (sm_nodes_In n u (l_keys n L)) in Hu.
      apply key_of_In. rewrite <- (SM u v Hu Ec). apply key_of_In. auto. }
    destruct (R4 a v Hav) as [Hr _]. apply IH; lia.
  Qed.

  Lemma In_combine_index (l : list nat) (l' : list V) t :
    In t l -> length l' = length l -> In (t, nth (index_of t l) l' vzero) (combine l l').
  Proof.
    revert l'. induction l as [|h r IH]; intros [|y l'] Hin HL; simpl in *; try tauto; try discriminate.
    destruct (t =? h) eqn:E.
    - apply Nat.eqb_eq in E. subst. auto.
    - right. apply IH; auto. destruct Hin as [->|H]; auto. rewrite Nat.eqb_refl in E. discriminate.
  Qed.

  Section OneNet.
    Variable n : net.
    Variable w : list K.
    Variable x : list V.
    Hypothesis L : Layered n.
    Hypothesis SM : sm_same n.

    Let F0 := S (length (n_hid n)).
    Definition Rv (v : nat) : V := ref_val n w x (S F0) v.
    Definition PREv (t : nat) : V := pre_of (n_con n) w (ref_val n w x F0) t.

    Lemma Rv_input v : In v (n_in n) -> Rv v = nth v x vzero.
    Proof. intro H. unfold Rv. simpl. apply mem_In in H. rewrite H. reflexivity. Qed.
    Lemma Rv_node v c : ~ In v (n_in n) -> alookup v (n_act n) = Some c ->
      Rv v = if c =? 5 then nth (index_of v (sm_nodes n)) (smx (map PREv (sm_nodes n))) vzero
             else act c (PREv v).
    Proof.
      intros H Hc. unfold Rv. simpl. apply mem_false in H. rewrite H, Hc. reflexivity.
    Qed.

    Lemma rank_bound rank t : rank_ok n rank -> In t (hidden n ++ n_out n) -> rank t <= F0.
    Proof.
      intros [_ [R2 [R3 _]]] H. apply in_app_iff in H. destruct H as [H|H].
      - apply In_concat_nth in H. destruct H as [i [Li [Hi Hv]]]. rewrite (R2 i Li t Hi Hv).
        pose proof (nth_error_lt _ _ _ Hi). unfold F0. lia.
      - rewrite (R3 t H). unfold F0. lia.
    Qed.
    Lemma PREv_Rv t : In t (hidden n ++ n_out n) -> PREv t = pre_of (n_con n) w Rv t.
    Proof.
      intro H. destruct (l_rank n L) as [rank R]. unfold PREv, Rv. apply pre_of_ext. intros a Ha.
      pose proof (rank_bound rank t R H) as Hb. destruct R as [R1 [R2 [R3 R4]]].
      destruct (R4 a t Ha) as [Hr _].
      apply (ref_val_stable n w x rank L SM (conj R1 (conj R2 (conj R3 R4)))); lia.
    Qed.

    (* one activation group over targets ts: nodes that hold their pre-activations receive
       their reference values *)
    Lemma act_step ts c (b : list V) :
      NoDup ts -> (forall t, In t ts -> t < length b /\ ~ In t (n_in n)) ->
      let ns := filter (has_code (n_act n) c) ts in
      (c = 5 -> ns = sm_nodes n) -> (forall u, In u ns -> rd b u = PREv u) ->
      forall t, In t ns -> rd (apply_act b (c, ns)) t = Rv t.
    Proof.
      intros ND Hts ns Hsm Hpre t Ht.
      assert (Hns : forall u, In u ns -> In u ts /\ alookup u (n_act n) = Some c).
      { intros u Hu. apply filter_In in Hu. rewrite has_code_true in Hu. exact Hu. }
      destruct (Hns t Ht) as [Ht' Hc]. rewrite (Rv_node t c (proj2 (Hts t Ht')) Hc).
      unfold NetForward.apply_act. simpl. rewrite (map_ext_in _ PREv ns Hpre).
      apply write_all_In.
      - apply NoDup_filter, ND.
      - intros j Hj. apply Hts, Hns, Hj.
      - destruct (c =? 5) eqn:E5.
        + apply Nat.eqb_eq in E5. rewrite <- (Hsm E5). apply In_combine_index; auto.
          rewrite smx_length. apply map_length.
        + rewrite map_map. apply (In_combine_self (fun u => act c (PREv u))), Ht.
    Qed.

    (* softmax nodes of a schedule group = all softmax nodes of the net (proved below from sm_same) *)
    Definition sm_cond (g : group) : Prop :=
      (exists t, In t (g_to g) /\ alookup t (n_act n) = Some 5) ->
      filter (has_code (n_act n) 5) (g_to g) = sm_nodes n.

    Lemma node_has_code t : In t (hidden n ++ n_out n) -> exists c, alookup t (n_act n) = Some c.
    Proof. intro H. apply alookup_Some. apply (l_act n L). apply in_app_iff. auto. Qed.

    Lemma group_step g calc (b : list V) :
      group_of (n_act n) (build_pairs (n_con n)) g -> sm_cond g ->
      incl (g_from g) calc -> (forall v, In v calc -> rd b v = Rv v) ->
      NoDup (g_to g) -> (forall t, In t (g_to g) -> ~ In t calc) ->
      (forall t, In t (g_to g) -> t < length b) ->
      length (forward_group w b g) = length b /\
      (forall v, In v calc -> rd (forward_group w b g) v = Rv v) /\
      (forall t, In t (g_to g) -> rd (forward_group w b g) t = Rv t).
    Proof.
      intros HG Hsm Hfrom Hcalc ND Hdis Hrange.
      destruct (group_of_wf _ _ g HG) as [_ Hsub]. destruct HG as [p [Hp [Ef [Et [Ew Hag]]]]].
      assert (Hnode : forall t, In t (g_to g) -> In t (hidden n ++ n_out n)).
      { intros t Ht. apply (ps_targets n L). exists p. rewrite <- Et. auto. }
      destruct (build_pairs_entry (n_con n) p Hp) as [_ Ews].
      destruct (act_groups_spec _ _ _ Hag) as [A1 [A2 A3]].
      assert (Hk : forall t, In t (g_to g) -> g_from g = key_of (n_con n) t).
      { intros t Ht. rewrite Ef. symmetry. apply (build_pairs_In _ p t Hp). rewrite <- Et. exact Ht. }
      split; [apply forward_group_length|].
      unfold NetForward.forward_group. cbv zeta. fold (p_ws p) in Ew. rewrite Ew, Ews, <- Et, map_map.
      set (b1 := write_all b (g_to g) _).
      assert (HA : forall t, In t (g_to g) -> rd b1 t = PREv t).
      { intros t Ht. unfold b1.
        rewrite (write_all_In V vzero b (g_to g) _ t _ ND Hrange (In_combine_self _ _ t Ht)).
        rewrite (map_ext_in _ Rv (g_from g)) by (intros a Ha; apply Hcalc, Hfrom, Ha).
        rewrite (Hk t Ht). unfold key_of. rewrite dot_entries. symmetry. apply PREv_Rv. auto. }
      split.
      - intros v Hv. rewrite fold_apply_act_frame.
        + unfold b1. rewrite write_all_frame; auto. intro Hc. apply (Hdis v Hc Hv).
        + intros cg Hin Hc. apply (Hdis v); auto. apply (Hsub cg Hin v Hc).
      - intros t Ht. destruct (node_has_code t (Hnode t Ht)) as [c Hc].
        set (ns := filter (has_code (n_act n) c) (g_to g)).
        assert (Htn : In t ns) by (apply filter_In, conj, has_code_true; auto).
        destruct (in_split _ _ (A3 t c Ht Hc)) as [pre [post Eg]]. fold ns in Eg.
        (* the groups before and after have another code: they leave ns alone *)
        assert (Hoth : forall cg u, In cg (pre ++ post) -> In u (snd cg) -> ~ In u ns).
        { intros [c' ns'] u Hcg Hu Hu'. rewrite Eg, map_app in A1. apply NoDup_remove_2 in A1.
          apply A1. rewrite <- map_app. apply in_map_iff. exists (c', ns'). split; auto.
          simpl in Hu. rewrite (A2 c' ns') in Hu by (rewrite Eg; apply in_app_iff in Hcg; apply in_app_iff; simpl; tauto). apply filter_In in Hu, Hu'. rewrite !has_code_true in *.
          simpl. destruct Hu, Hu'. congruence. }
        rewrite Eg, fold_left_app. simpl.
        rewrite fold_apply_act_frame by (intros cg Hcg Hu; apply (Hoth cg t); auto using in_or_app).
        apply act_step; auto.
        + intros u Hu. rewrite fold_apply_act_length. unfold b1. rewrite write_all_length. split; auto.
          intro Hin. apply (layered_disjoint n L u Hin). auto.
        + intros ->. apply Hsm. eauto.
        + intros u Hu. rewrite fold_apply_act_frame by (intros cg Hcg Hu'; apply (Hoth cg u); auto using in_or_app).
          apply HA. apply filter_In in Hu. tauto.
    Qed.

    Lemma forward_inv : forall s calc (b : list V),
      Forall (group_of (n_act n) (build_pairs (n_con n))) s -> Forall sm_cond s ->
      well_sched calc s -> NoDup (calc ++ targets s) ->
      (forall t, In t (targets s) -> t < length b) ->
      (forall v, In v calc -> rd b v = Rv v) ->
      forall v, In v (calc ++ targets s) -> rd (forward w b s) v = Rv v.
    Proof.
      induction s as [|g r IH]; intros calc b HG HS HW ND HT Hcalc v Hv.
      - simpl in Hv. rewrite app_nil_r in Hv. auto.
      - inversion HG; subst. inversion HS; subst. destruct HW as [W1 W2].
        rewrite targets_cons, app_assoc in ND, Hv. rewrite targets_cons in HT.
        pose proof ND as N. apply NoDup_app_elim in N. destruct N as [N _].
        apply NoDup_app_elim in N. destruct N as [_ [N1 N3]].
        destruct (group_step g calc b H1 H3 W1 Hcalc N1) as [GL [GC GT]].
        { intros t Ht Hc. apply (N3 t Hc Ht). }
        { intros t Ht. apply HT, in_app_iff. auto. }
        rewrite forward_cons. apply (IH (calc ++ g_to g)); auto.
        + intros t Ht. rewrite GL. apply HT, in_app_iff. auto.
        + intros u Hu. apply in_app_iff in Hu. destruct Hu; auto.
    Qed.

    (* from sm_same: the softmax nodes of a group are all softmax nodes of the net *)
    Lemma sm_cond_holds g : group_of (n_act n) (build_pairs (n_con n)) g -> sm_cond g.
    Proof.
      intros [p [Hp [Ef [Et [Ew Hag]]]]] [t0 [Ht0 Hc0]].
      pose proof (build_pairs_sorted (n_con n) p Hp) as Hs. rewrite <- Et in Hs.
      rewrite Et in Ht0. apply (build_pairs_In _ p t0 Hp) in Ht0. destruct Ht0 as [_ Ek].
      apply (sorted_perm_eq le).
      - intros a b. apply Nat.le_antisymm.
      - apply sorted_filter. eapply sorted_weaken; [|exact Hs]. apply Nat.lt_le_incl.
      - apply sort_nat_sorted.
      - apply NoDup_Permutation.
        + apply NoDup_filter, (sorted_NoDup lt), Hs. apply Nat.lt_irrefl.
        + apply (Permutation_NoDup (Permutation_sym (sort_nat_perm _))), NoDup_map_filter, (l_keys n L).
        + intro u. rewrite (sm_nodes_In n u (l_keys n L)), filter_In, has_code_true.
          split; [tauto|]. intro Hu. split; auto. rewrite Et. apply (build_pairs_In _ p u Hp). split.
          * apply (layered_targets n L), in_app_iff, (l_act n L). apply alookup_Some. eauto.
          * rewrite <- Ek. apply SM; auto.
    Qed.

    Theorem forward_is_ref_row garbage s :
      get_order (order_fuel n) n = Some s ->
      (forall v, In v (n_in n ++ hidden n ++ n_out n) -> v < length garbage) ->
      forall v, In v (n_in n) \/ In v (hidden n ++ n_out n) ->
        rd (forward w (init_buf garbage (n_in n) x) s) v = Rv v.
    Proof.
      intros Hs Hrange v Hv.
      destruct (order_terminates n L) as [s' [E [W [P G]]]]. rewrite E in Hs. inversion Hs; subst s'.
      pose proof (l_sets n L) as HS.
      apply (forward_inv s (n_in n)); auto.
      - eapply Forall_impl; [|exact G]. apply sm_cond_holds.
      - eapply Permutation_NoDup; [apply Permutation_app_head; symmetry; exact P|exact HS].
      - intros t Ht. rewrite init_buf_length. apply Hrange, in_app_iff. right.
        eapply Permutation_in; eauto.
      - intros u Hu. rewrite Rv_input by auto. unfold NetForward.init_buf.
        apply write_all_In; auto.
        + apply NoDup_app_elim in HS. tauto.
        + intros j Hj. apply Hrange. apply in_app_iff. auto.
        + apply (In_combine_self (fun i => nth i x vzero)). auto.
      - apply in_app_iff. destruct Hv as [Hv|Hv]; auto. right.
        eapply Permutation_in; [symmetry; exact P|auto].
    Qed.
  End OneNet.

  (* C12_forward_is_ref: Net.forward(X, W) = the reference evaluation with each row as weights *)
  Theorem forward_is_ref n garbage x ws :
    Layered n -> sm_same n ->
    (forall v, In v (n_in n ++ hidden n ++ n_out n) -> v < length garbage) ->
    NetForward.net_forward K V kzero vzero vadd vscale act smx (order_fuel n) n garbage x ws
    = Some (map (fun w => ref_eval n w x) ws).
  Proof.
    intros L SM Hrange. rewrite (net_forward_fresh K V kzero vzero vadd vscale act smx n garbage garbage) by auto.
    destruct (order_terminates n L) as [s [E _]]. rewrite E. simpl. f_equal.
    apply map_ext. intro w. unfold NetForward.ref_eval. apply map_ext_in. intros v Hv.
    apply (forward_is_ref_row n w x L SM garbage s E Hrange). right. apply in_app_iff. auto.
  Qed.

  (* the (weight, source value) pairs of the rows into u, read off the zipped (row, weight) list *)
  Definition row_terms (val : nat -> V) (u : nat) (cw : list ((nat * nat) * K)) : list (K * V) :=
    map (fun p => (snd p, val (fst (fst p)))) (filter (fun p => snd (fst p) =? u) cw).

  Lemma entries_from_terms (val : nat -> V) u con : forall pre wt,
    length wt = length con ->
    map (fun e => (nth (snd e) (pre ++ wt) kzero, val (fst e))) (entries_from (length pre) con u)
    = row_terms val u (combine con wt).
  Proof.
    induction con as [|[a b] r IH]; intros pre [|k wt] HL; simpl in *; try discriminate; auto.
    assert (IH' := IH (pre ++ [k]) wt ltac:(lia)).
    rewrite app_length in IH'. simpl in IH'. rewrite Nat.add_1_r, <- app_assoc in IH'. simpl in IH'.
    unfold row_terms. simpl. destruct (b =? u) eqn:E; simpl.
    - f_equal.
      + f_equal. rewrite app_nth2 by lia. rewrite Nat.sub_diag. reflexivity.
      + exact IH'.
    - exact IH'.
  Qed.

  Lemma pre_of_terms w (val : nat -> V) con u :
    length w = length con ->
    pre_of con w val u
    = fold_left (fun acc p => vadd acc (vscale (fst p) (snd p))) (row_terms val u (combine con w)) vzero.
  Proof.
    intro HL. unfold NetForward.pre_of, NetForward.dot. rewrite combine_map2.
    rewrite <- (entries_from_terms val u con [] w HL). reflexivity.
  Qed.

  Lemma pre_of_perm w w' (val : nat -> V) con con' u :
    length w = length con -> length w' = length con' ->
    Permutation (combine con w) (combine con' w') ->
    pre_of con w val u = pre_of con' w' val u.
  Proof.
    intros H1 H2 P. rewrite !pre_of_terms by auto. apply fold_left_perm.
    - intros a p q. apply vadd_swap.
    - unfold row_terms. apply Permutation_map. apply Permutation_filter. exact P.
  Qed.

  Lemma ref_val_perm n n' w w' x :
    n_in n' = n_in n -> n_act n' = n_act n ->
    length w = length (n_con n) -> length w' = length (n_con n') ->
    Permutation (combine (n_con n) w) (combine (n_con n') w') ->
    forall f v, ref_val n' w' x f v = ref_val n w x f v.
  Proof.
    intros Ei Ea H1 H2 P. induction f as [|f IH]; intro v; [reflexivity|].
    apply ref_val_step; auto. intros u _.
    rewrite (pre_of_ext w' (n_con n') _ (ref_val n w x f)) by (intros; apply IH).
    symmetry. apply pre_of_perm; auto.
  Qed.

  (* permuting the connection rows together with the weights (the multiset of (row, weight)
     pairs is unchanged) does not change Net.forward *)
  Theorem order_irrelevant n n' w w' garbage x :
    Layered n -> sm_same n ->
    n_in n' = n_in n -> n_hid n' = n_hid n -> n_out n' = n_out n -> n_act n' = n_act n ->
    length w = length (n_con n) -> length w' = length (n_con n') ->
    Permutation (combine (n_con n) w) (combine (n_con n') w') ->
    (forall v, In v (n_in n ++ hidden n ++ n_out n) -> v < length garbage) ->
    NetForward.net_forward K V kzero vzero vadd vscale act smx (order_fuel n') n' garbage x [w']
    = NetForward.net_forward K V kzero vzero vadd vscale act smx (order_fuel n) n garbage x [w].
  Proof.
    intros L SM Ei Eh Eo Ea H1 H2 P Hrange.
    assert (Pc : Permutation (n_con n) (n_con n')).
    { rewrite <- (map_fst_combine (n_con n) w (eq_sym H1)), <- (map_fst_combine (n_con n') w' (eq_sym H2)).
      apply Permutation_map. exact P. }
    assert (Hin : forall c, In c (n_con n') <-> In c (n_con n)).
    { intro c. split; intro H; [eapply Permutation_in; [symmetry; exact Pc|exact H]
                                |eapply Permutation_in; [exact Pc|exact H]]. }
    assert (Hhid : hidden n' = hidden n) by (unfold hidden; rewrite Eh; auto).
    assert (L' : Layered n').
    { destruct L as [l1 l2 l3 l4 l5]. constructor; rewrite ?Ei, ?Hhid, ?Eo, ?Ea; auto.
      - destruct l2 as [rank [R1 [R2 [R3 R4]]]]. exists rank. unfold rank_ok.
        rewrite Ei, Eh, Eo, Hhid. repeat split; auto; intros; apply Hin in H; apply R4 in H; tauto.
      - intros v Hv. destruct (l3 v Hv) as [a Ha]. exists a. apply Hin. auto. }
    assert (SM' : sm_same n').
    { intros u v Hu Hv. rewrite Ea in Hu, Hv.
      rewrite <- !(key_of_perm (n_con n) (n_con n')) by auto. apply SM; auto. }
    rewrite (forward_is_ref n garbage x [w] L SM Hrange).
    rewrite (forward_is_ref n' garbage x [w'] L' SM').
    - simpl. f_equal. f_equal. unfold NetForward.ref_eval. rewrite Eh, Eo.
      apply map_ext. intro v. apply ref_val_perm; auto.
    - rewrite Ei, Hhid, Eo. exact Hrange.
  Qed.
End RefProofs.
