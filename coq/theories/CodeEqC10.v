(* CodeEqC10.v — the decoders of the sampling grid (SamplingGrid.bit_to_int / _decode, GrayCode.gray_to_bit / bit_to_gray / _decode;
   whole-array numpy, translated on every run into gen/GenCode.v with the array forms of Py.v) ARE the row-wise models of Gray.v /
   Grid.v: a 2-D 0/1 array is a list of rows, a row read as booleans (non-zero = true). *)
From TF Require Import Py PyLemmas Gray Grid.
From TFG Require Import GenCode.
Open Scope Z_scope.

Definition bz (r : list Z) : list bool := map z2b r.
Definition bit01 (z : Z) : Prop := z = 0 \/ z = 1.

Lemma z2b_b2z b : z2b (b2z b) = b. Proof. destruct b; reflexivity. Qed.
Lemma b2z_z2b z : bit01 z -> b2z (z2b z) = z. Proof. intros [-> | ->]; reflexivity. Qed.

Lemma xor_accZ_model : forall g acc, bz (xor_accZ acc g) = xor_acc acc (bz g).
Proof. induction g as [|x t IH]; intro acc; cbn; [reflexivity|]. now rewrite z2b_b2z, IH. Qed.

Lemma xor_accZ_row r : bz (xor_accZ false r) = gray_to_bits (bz r).
Proof. destruct r as [|x t]; [reflexivity|]. cbn. rewrite z2b_b2z, xor_accZ_model. now destruct (z2b x). Qed.

Theorem code_gray_to_bit m : map bz (py_gray_to_bit m) = map (fun r => gray_to_bits (bz r)) m.
Proof. unfold py_gray_to_bit, xor_accumulate_rows. cbv zeta. rewrite map_map. apply map_ext. apply xor_accZ_row. Qed.

Lemma xor_accZ_bits : forall g acc, Forall bit01 (xor_accZ acc g) /\ length (xor_accZ acc g) = length g.
Proof.
  induction g as [|x t IH]; intro acc; cbn; [split; [constructor|reflexivity]|].
  destruct (IH (xorb acc (z2b x))) as [F L]. split; [constructor; [destruct (xorb acc (z2b x)); [right|left]; reflexivity|exact F]|now rewrite L].
Qed.

Lemma zip_with_map_same {A B C D} (f : B -> C -> D) (g : A -> B) (h : A -> C) l :
  zip_with f (map g l) (map h l) = map (fun x => f (g x) (h x)) l.
Proof. induction l; cbn; [reflexivity|]. now rewrite IHl. Qed.
Lemma zip_with_map_r {A B C} (f : A -> B -> C) (h : A -> B) l : zip_with f l (map h l) = map (fun x => f x (h x)) l.
Proof. induction l; cbn; [reflexivity|]. now rewrite IHl. Qed.

Lemma xor_pairs_code : forall t x,
  bz (zip_with (fun a b => b2z (xorb (z2b a) (z2b b))) (removelast (x :: t)) t) = xor_pairs (z2b x) (bz t).
Proof.
  induction t as [|y t IH]; intro x; [reflexivity|].
  change (removelast (x :: y :: t)) with (x :: removelast (y :: t)). cbn [zip_with bz map xor_pairs].
  rewrite z2b_b2z. f_equal. apply IH.
Qed.

Theorem code_bit_to_gray m : Forall (fun r => r <> []) m ->
  map bz (py_bit_to_gray m) = map (fun r => bits_to_gray (bz r)) m.
Proof.
  intro H. unfold py_bit_to_gray, logical_xor2, cols_but_last, cols_from1, hstack_col0. cbv zeta.
  rewrite zip_with_map_same, zip_with_map_r, map_map. apply map_ext_Forall. eapply Forall_impl; [|exact H].
  intros [|x t] Hr; [congruence|].
  cbn [hd tl]. change (bz (x :: ?l)) with (z2b x :: bz l). cbn [bz map bits_to_gray]. f_equal. apply xor_pairs_code.
Qed.

Lemma sumZ_acc : forall l a, fold_left Z.add l a = a + fold_left Z.add l 0.
Proof. induction l as [|x l IH]; intro a; cbn; [lia|]. rewrite (IH (a + x)), (IH x). lia. Qed.
Lemma dotZ_cons x t p ps : dotZ (x :: t) (p :: ps) = x * p + dotZ t ps.
Proof. unfold dotZ, sumZ. cbn. rewrite sumZ_acc. reflexivity. Qed.

Lemma rev_pow2s_S (k : nat) : rev (pow2s (arange (Z.of_nat (S k)))) = 2 ^ Z.of_nat k :: rev (pow2s (arange (Z.of_nat k))).
Proof. unfold pow2s, arange. rewrite !Nat2Z.id, seq_S, !map_app, rev_app_distr. reflexivity. Qed.

Lemma dot_bits : forall r, Forall bit01 r -> dotZ r (rev (pow2s (arange (zlen r)))) = bits_to_int (bz r).
Proof.
  induction r as [|x t IH]; intro H; [reflexivity|].
  inversion H as [|? ? Hx Ht]; subst. unfold zlen. cbn [length]. rewrite rev_pow2s_S, dotZ_cons.
  fold (zlen t). rewrite (IH Ht). cbn [bz map bits_to_int]. change (Z.b2z (z2b x)) with (b2z (z2b x)). rewrite (b2z_z2b x Hx). unfold bz. now rewrite map_length.
Qed.

Lemma firstn_pow2s (w n : nat) : (w <= n)%nat -> firstn w (pow2s (arange (Z.of_nat n))) = pow2s (arange (Z.of_nat w)).
Proof.
  intro H. unfold pow2s, arange. rewrite !Nat2Z.id, !firstn_map. do 2 f_equal.
  replace n with (w + (n - w))%nat by lia. rewrite seq_app, firstn_app, seq_length, Nat.sub_diag, firstn_O, app_nil_r.
  rewrite firstn_all2 by (rewrite seq_length; lia). reflexivity.
Qed.

(* every row has the width of the first one, 0/1 entries *)
Definition grid_rows (w : nat) (m : list (list Z)) : Prop := Forall (fun r => length r = w /\ Forall bit01 r) m.

Lemma grid_rows_zlen (w : nat) m : m <> [] -> grid_rows w m -> zlen (getR m 0) = Z.of_nat w.
Proof. intros Hne Hm. rewrite getR_0. destruct Hm as [|r m' [Hl _] _]; [congruence|]. cbn [nth]. unfold zlen. now rewrite Hl. Qed.

Theorem code_bit_to_int_powers (w n : nat) m : m <> [] -> grid_rows w m -> (w <= n)%nat ->
  py_bit_to_int_powers m (pow2s (arange (Z.of_nat n))) = map (fun r => bits_to_int (bz r)) m.
Proof.
  intros Hne Hm Hw. unfold py_bit_to_int_powers, matvecZ. cbv zeta.
  rewrite (grid_rows_zlen w) by auto. unfold sliceTo. rewrite pyidx_nat, (firstn_pow2s w n Hw).
  apply map_ext_Forall. eapply Forall_impl; [|exact Hm]. intros r [Hl Hb]. rewrite <- Hl. apply (dot_bits r Hb).
Qed.

Theorem code_SamplingGrid_decode (w n : nat) m : m <> [] -> grid_rows w m -> (w <= n)%nat ->
  py_SamplingGrid_decode (pow2s (arange (Z.of_nat n))) m = map (fun r => decode Binary (bz r)) m.
Proof. exact (code_bit_to_int_powers w n m). Qed.

Theorem code_GrayCode_decode (w n : nat) m : m <> [] -> Forall (fun r => length r = w) m -> (w <= n)%nat ->
  py_GrayCode_decode (pow2s (arange (Z.of_nat n))) m = map (fun r => decode Gray (bz r)) m.
Proof.
  intros Hne Hm Hw. unfold py_GrayCode_decode. cbv zeta. change (py_gray_to_bit m) with (map (xor_accZ false) m).
  rewrite (code_bit_to_int_powers w n); auto.
  - rewrite map_map. apply map_ext. intro r. cbn [decode]. now rewrite xor_accZ_row.
  - now destruct m.
  - apply Forall_map. eapply Forall_impl; [|exact Hm]. intros r Hr.
    destruct (xor_accZ_bits r false) as [F L]. split; [now rewrite L|exact F].
Qed.
