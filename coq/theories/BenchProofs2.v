(* BenchProofs2.v — C20: what concrete histories are written in (position of a problem or a table by
   name, the identity oracle, the zero store; props/C20.v uses them on the generated table too), and
   with them the refutation witnesses for the footprint table before the repair (BenchPre.v).
   Each witness is a concrete history on which the faithful model of the old code makes a
   reader see different table contents than on a fresh store; the same histories are replayed on
   the real code by harness/props/c20.py (family "refuted-witness"). *)
From TF Require Import Base Bench BenchPre.
From Coq Require Import String.
Open Scope string_scope.
Open Scope Z_scope.

Definition index_of (tbl : list entry) (name : string) : nat :=
  (fix go (l : list entry) (i : nat) : nat :=
     match l with [] => i | e :: t => if String.eqb (e_name e) name then i else go t (S i) end) tbl O.
Definition tab_of (names : list string) (name : string) : nat :=
  (fix go (l : list string) (i : nat) : nat :=
     match l with [] => i | e :: t => if String.eqb e name then i else go t (S i) end) names O.

Definition orc_id : oracle := fun _ _ v => v.
Definition s_zero : store := fun _ => 0%Q.

Definition history_dependent (tbl : list entry) (dims : list Z) (name : string) : Prop :=
  exists orc s0 h p D c,
    Forall (valid_event tbl dims) h /\ (p < List.length tbl)%nat /\ In D dims /\ In (Ctor p) h /\
    in_reads tbl p D c = true /\ e_name (nth p tbl dummy_entry) = name /\
    run orc tbl (h ++ [Call p D]) s0 c <> run orc tbl [Ctor p; Call p D] s0 c.

Ltac valid_ev :=
  match goal with
  | |- valid_event _ _ (Ctor _) => vm_compute; lia
  | |- valid_event _ _ (Call _ _) => split; [vm_compute; lia | simpl; tauto]
  end.
Ltac valid_hist := repeat (apply Forall_cons; [valid_ev|]); apply Forall_nil.

(* F5: a D=10 call leaves 100 in o_206[8], which a D=30 call reads and does not rewrite *)
Definition pF5 := index_of pre_table "Schwefel2_6".
Definition tF5 := tab_of pre_table_names "schwefel_206_data".
Lemma F5_history_dependent : history_dependent pre_table supported_dims "Schwefel2_6".
Proof.
  exists orc_id, s_zero, [Ctor pF5; Call pF5 10], pF5, 30, (tF5, [0; 8]).
  split; [valid_hist|]. split; [vm_compute; lia|]. split; [simpl; tauto|].
  split; [left; reflexivity|]. split; [vm_compute; reflexivity|]. split; [vm_compute; reflexivity|].
  vm_compute. discriminate.
Qed.

(* F20 -> F18: any F20 call leaves 5 in row 0 of the table F18 reads *)
Definition pF18 := index_of pre_table "RotatedHybridCompositionFunction".
Definition pF20 := index_of pre_table "RotatedHybridCompositionFunctionOptimalBounds".
Definition tH2 := tab_of pre_table_names "hybrid_func2_data".
Lemma F18_after_F20_history_dependent : history_dependent pre_table supported_dims "RotatedHybridCompositionFunction".
Proof.
  exists orc_id, s_zero, [Ctor pF18; Ctor pF20; Call pF20 10], pF18, 10, (tH2, [0; 1]).
  split; [valid_hist|]. split; [vm_compute; lia|]. split; [simpl; tauto|].
  split; [left; reflexivity|]. split; [vm_compute; reflexivity|]. split; [vm_compute; reflexivity|].
  vm_compute. discriminate.
Qed.

(* F20 on itself: a D=50 call writes 5 at index 5, which a D=10 call reads and does not rewrite *)
Lemma F20_history_dependent : history_dependent pre_table supported_dims "RotatedHybridCompositionFunctionOptimalBounds".
Proof.
  exists orc_id, s_zero, [Ctor pF20; Call pF20 50], pF20, 10, (tH2, [0; 5]).
  split; [valid_hist|]. split; [vm_compute; lia|]. split; [simpl; tauto|].
  split; [left; reflexivity|]. split; [vm_compute; reflexivity|]. split; [vm_compute; reflexivity|].
  vm_compute. discriminate.
Qed.

(* the problem class of this name writes its argument *)
Definition argument_written (tbl : list entry) (name : string) : Prop :=
  let p := index_of tbl name in
  (p < List.length tbl)%nat /\ e_arg (nth p tbl dummy_entry) <> [] /\
  exists orc D x c, arg_after orc tbl p D x c <> x c.

(* F8's write is of the harmless kind: the pre-repair table restricted to it already satisfies
   the condition (the reader rewrites what it reads) *)
Lemma pre_F8_reader_ok :
  forallb (fun D => reader_ok pre_table supported_dims (index_of pre_table "ShiftedRotatedAckley") D)
          supported_dims = true.
Proof. vm_compute. reflexivity. Qed.
