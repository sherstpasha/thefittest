(* EstimatorProofs.v — the class labels and their positions, reserved arguments (C18). *)
From Coq Require Import String.
From TF Require Import Estimator.
Open Scope Q_scope.

Lemma insert_dedup_in y l x : In x (insert_dedup y l) <-> In x (y :: l).
Proof.
  induction l as [|a l IH]; cbn [insert_dedup]; [reflexivity|].
  destruct (y <? a)%Z; [reflexivity|].
  destruct (Z.eqb_spec y a) as [->|_]; cbn [In] in *; [|rewrite IH]; tauto.
Qed.

Lemma classes_in ys x : In x (classes ys) <-> In x ys.
Proof.
  unfold classes. induction ys as [|y ys IH]; cbn [fold_right]; [reflexivity|].
  rewrite insert_dedup_in. cbn [In]. now rewrite IH.
Qed.

Lemma index_of_spec y l : In y l -> exists i, index_of y l = Some i /\ (i < length l)%nat /\ nth i l 0%Z = y.
Proof.
  induction l as [|x t IH]; intros H; [contradiction|]. cbn [index_of].
  destruct (x =? y)%Z eqn:E.
  - apply Z.eqb_eq in E. subst. exists 0%nat. cbn. repeat split; lia.
  - destruct H as [H|H]; [apply Z.eqb_neq in E; congruence|].
    destruct (IH H) as (i & Hi & Hl & Hn). exists (S i). rewrite Hi. cbn. repeat split; auto. lia.
Qed.

(* reserved optimizer arguments: accepted iff no key is reserved *)
Theorem accepts_spec reserved keys :
  accepts reserved keys = true <-> forall k, In k keys -> ~ In k reserved.
Proof.
  unfold accepts. rewrite forallb_forall. split; intros H k Hk.
  - specialize (H k Hk). rewrite negb_true_iff in H. intro Hin.
    assert (existsb (String.eqb k) reserved = true) by (apply existsb_exists; exists k; split; auto; apply String.eqb_refl).
    congruence.
  - rewrite negb_true_iff. destruct (existsb (String.eqb k) reserved) eqn:E; auto.
    apply existsb_exists in E. destruct E as (x & Hx & He). apply String.eqb_eq in He. subst. exfalso. apply (H x Hk Hx).
Qed.

(* the error of the training-set predictions is the training objective of the stored model *)
Theorem train_error {Model Data Out} (evalm : Model -> Data -> Out) (metric : Out -> Out -> Q) y X m :
  metric y (predict_out Model Data Out evalm m X) = training_objective Model Data Out evalm metric y X m.
Proof. reflexivity. Qed.
