(* EAStoreProofs.v — non-interference in the aliasing model (C01 last clause, C17). *)
From TF Require Import EAStore.

Section Proofs.
Variable V : Type.
Variable dflt : V.
Notation st := (st V).
Notation step := (step V dflt).
Notation run := (run V dflt).
Notation rd := (rd V dflt).
Notation wf := (wf V).

Lemma rd_app_old (s : store V) v l : (l < length s)%nat -> rd (s ++ v) l = rd s l.
Proof. intros H. unfold EAStore.rd. now rewrite app_nth1. Qed.

Lemma alloc_all_eq : forall vs (s : store V), alloc_all V s vs = (s ++ vs, seq (length s) (length vs)).
Proof.
  induction vs as [|v vs IH]; intros s; cbn [alloc_all alloc length seq]; [now rewrite app_nil_r|].
  now rewrite IH, <- app_assoc, app_length, Nat.add_1_r.
Qed.

Lemma rd_wr_other (s : store V) l l' v : l <> l' -> rd (wr V s l v) l' = rd s l'.
Proof. intros H. unfold EAStore.rd, wr. apply nth_upd_neq. auto. Qed.

Lemma wr_length (s : store V) l v : length (wr V s l v) = length s.
Proof. apply upd_length. Qed.

Lemma in_seq_fresh n len l : In l (seq n len) -> (n <= l)%nat.
Proof. intros H. apply in_seq in H. lia. Qed.

Definition below (n : nat) (a : list loc) : Prop := forall l, In l a -> (l < n)%nat.

Lemma below_app n a b : below n (a ++ b) <-> below n a /\ below n b.
Proof.
  unfold below. split; [intro H; split; intros l Hl; apply H, in_or_app; auto|].
  intros (Ha & Hb) l Hl. apply in_app_or in Hl. destruct Hl; auto.
Qed.
Lemma below_grow (h vs : store V) a : below (length h) a -> below (length (h ++ vs)) a.
Proof. intros H l Hl. specialize (H l Hl). rewrite app_length. lia. Qed.
Lemma below_fresh (h vs : store V) : below (length (h ++ vs)) (seq (length h) (length vs)).
Proof. intros l Hl. apply in_seq in Hl. rewrite app_length. lia. Qed.

Lemma disjoint_seq_r a n len : below n a -> disjoint a (seq n len).
Proof. intros H l Hl Hc. apply in_seq_fresh in Hc. specialize (H l Hl). lia. Qed.
Lemma disjoint_seq_l a n len : below n a -> disjoint (seq n len) a.
Proof. intros H l Hl Hc. apply in_seq_fresh in Hl. specialize (H l Hc). lia. Qed.
Lemma disjoint_app_r a b c : disjoint a b -> disjoint a c -> disjoint a (b ++ c).
Proof. intros Hb Hc l Hl H. apply in_app_or in H. destruct H; [apply (Hb l)|apply (Hc l)]; auto. Qed.
Lemma disjoint_app_l a b c : disjoint a c -> disjoint b c -> disjoint (a ++ b) c.
Proof. intros Ha Hb l Hl H. apply in_app_or in Hl. destruct Hl; [apply (Ha l)|apply (Hb l)]; auto. Qed.

Lemma wf_below (s : st) : wf s ->
  let n := length (heap V s) in below n (pop V s) /\ below n (rcd V s) /\ below n (hist V s) /\ below n (caller V s) /\ below n (ret V s).
Proof. intros (Hal & _). cbv zeta. now rewrite <- !below_app. Qed.

Lemma wf_intro (h : store V) p r hi c t :
  below (length h) p -> below (length h) r -> below (length h) hi -> below (length h) c -> below (length h) t ->
  disjoint p r -> disjoint p hi -> disjoint p c -> disjoint p t -> disjoint t r -> disjoint t hi -> disjoint t c ->
  wf {| heap := h; pop := p; rcd := r; hist := hi; caller := c; ret := t |}.
Proof.
  intros Bp Br Bh Bc Bt. unfold EAStore.wf. cbn [heap pop rcd hist caller ret]. repeat split; auto.
  change (below (length h) (p ++ r ++ hi ++ c ++ t)). now rewrite !below_app.
Qed.

Definition no_replace (o : op V) : bool := match o with ReplaceRecord _ _ => false | _ => true end.

Lemma step_shape (s : st) o :
  ((exists vs, heap V (step s o) = heap V s ++ vs) \/
   (exists l v, (In l (pop V s) \/ In l (ret V s)) /\ heap V (step s o) = wr V (heap V s) l v)) /\
  (exists ext, hist V (step s o) = hist V s ++ ext) /\ caller V (step s o) = caller V s /\
  (no_replace o = true -> rcd V (step s o) = rcd V s).
Proof.
  assert (Hx : exists ext, hist V s = hist V s ++ ext) by (exists []; now rewrite app_nil_r).
  (* an operation that finds nothing to act on returns s *)
  assert (Hid : (exists vs, heap V s = heap V s ++ vs) \/
                (exists l v, (In l (pop V s) \/ In l (ret V s)) /\ heap V s = wr V (heap V s) l v))
    by (left; exists []; now rewrite app_nil_r).
  destruct o as [vals| |i v| |i| | |k v]; cbn [EAStore.step no_replace]; rewrite ?alloc_all_eq.
  (* NewPop, InitFromCaller, Snapshot, Get allocate; Snapshot extends hist by what it allocated *)
  1, 2, 6, 7: cbn [heap hist caller rcd]; split; [left|]; eauto.
  - (* PopWrite: a row of pop *)
    destruct (nth_error (pop V s) i) as [l0|] eqn:E; [|auto]. apply nth_error_In in E. cbn [heap hist caller rcd].
    split; [right; exists l0, v|]; auto.
  - (* ElitismWrite: the last row of pop *)
    destruct (rcd V s) as [|r rs] eqn:Er; [auto|]. destruct (rev (pop V s)) as [|l0 ls] eqn:E; [auto|].
    assert (In l0 (pop V s)) by (apply in_rev; rewrite E; left; reflexivity). cbn [heap hist caller rcd].
    split; [right; exists l0, (rd (heap V s) r)|]; auto.
  - (* ReplaceRecord allocates the new record; the one operation that sets rcd *)
    destruct (nth_error (pop V s) i); [|auto]. unfold alloc. cbn [heap hist caller].
    split; [left; eauto|]. split; [exact Hx|]. split; [reflexivity|discriminate].
  - (* CallerWrite: a row of ret *)
    destruct (nth_error (ret V s) k) as [l0|] eqn:E; [|auto]. apply nth_error_In in E. cbn [heap hist caller rcd].
    split; [right; exists l0, v|]; auto.
Qed.

Theorem step_frame (s : st) o l : wf s -> In l (rcd V s ++ hist V s ++ caller V s) ->
  rd (heap V (step s o)) l = rd (heap V s) l.
Proof.
  intros Hw Hin. destruct (step_shape s o) as ([(vs & ->)|(l0 & v & Hl0 & ->)] & _).
  - apply rd_app_old. apply Hw. rewrite !in_app_iff in *. tauto.
  - apply rd_wr_other. intros ->. destruct Hw as (_ & Dr & Dh & Dc & _ & Tr & Th & Tc). rewrite !in_app_iff in Hin.
    destruct Hl0, Hin as [|[|]]; [eapply Dr|eapply Dh|eapply Dc|eapply Tr|eapply Th|eapply Tc]; eauto.
Qed.

Theorem step_wf (s : st) o : wf s -> wf (step s o).
Proof.
  intros Hw. destruct (wf_below s Hw) as (Bp & Br & Bh & Bc & Bt).
  pose proof Hw as (_ & Dr & Dh & Dc & Dt & Tr & Th & Tc).
  pose proof (below_grow (heap V s)) as Hgrow. pose proof (below_fresh (heap V s)) as Hnew.
  (* a write changes no list and not the size of the heap *)
  assert (Hwr : forall l v, wf {| heap := wr V (heap V s) l v; pop := pop V s; rcd := rcd V s; hist := hist V s; caller := caller V s; ret := ret V s |}).
  { intros l v. apply wf_intro; rewrite ?wr_length; auto. }
  destruct o as [vals| |i v| |i| | |k v]; cbn [EAStore.step]; rewrite ?alloc_all_eq.
  1, 2: apply wf_intro; auto using disjoint_seq_l.
  - destruct (nth_error (pop V s) i); auto.
  - destruct (rcd V s); [exact Hw|]. destruct (rev (pop V s)); auto.
  - destruct (nth_error (pop V s) i) as [l0|]; [|exact Hw]. apply (wf_intro _ _ (seq _ 1)); auto using disjoint_seq_r. exact (Hnew [_]).
  - apply wf_intro; auto using disjoint_seq_r, disjoint_app_r. apply below_app; auto.
  - apply wf_intro; auto using disjoint_seq_r, disjoint_seq_l, disjoint_app_r, disjoint_app_l. apply below_app; auto.
  - destruct (nth_error (ret V s) k); auto.
Qed.

Lemma run_wf ops : forall s, wf s -> wf (run s ops).
Proof. unfold EAStore.run. induction ops as [|o ops IH]; intros s H; cbn [fold_left]; auto. apply IH. apply step_wf; auto. Qed.

Lemma run_inv (ok : op V -> bool) (I : st -> Prop) :
  (forall s o, wf s -> ok o = true -> I s -> I (step s o)) ->
  forall ops s, wf s -> forallb ok ops = true -> I s -> I (run s ops).
Proof.
  intros Hstep. unfold EAStore.run. induction ops as [|o ops IH]; intros s Hw Hok Hi; cbn [fold_left]; [exact Hi|].
  cbn [forallb] in Hok. apply andb_true_iff in Hok. destruct Hok as (Ho & Hok). apply IH; auto using step_wf.
Qed.

(* C17: a history entry, once recorded, is never altered; caller inputs are never modified *)
Theorem history_immutable ops : forall (s : st) l, wf s -> In l (hist V s ++ caller V s) ->
  In l (hist V (run s ops) ++ caller V (run s ops)) /\ rd (heap V (run s ops)) l = rd (heap V s) l.
Proof.
  intros s l Hw Hin.
  apply (run_inv (fun _ => true) (fun s' => In l (hist V s' ++ caller V s') /\ rd (heap V s') l = rd (heap V s) l)); auto.
  - intros s1 o Hw1 _ (Hin1 & <-). destruct (step_shape s1 o) as (_ & (ext & ->) & -> & _). split.
    + apply in_app_or in Hin1. destruct Hin1; auto using in_or_app.
    + apply step_frame; auto using in_or_app.
  - now apply forallb_forall.
Qed.

(* C01: as long as the record is not replaced, no population write (greedy, elitism, new population), no snapshot, no get and no
   caller-side write changes the reported triple *)
Theorem record_private ops : forall (s : st), wf s -> forallb no_replace ops = true ->
  rcd V (run s ops) = rcd V s /\ forall l, In l (rcd V s) -> rd (heap V (run s ops)) l = rd (heap V s) l.
Proof.
  intros s Hw Hn.
  apply (run_inv no_replace (fun s' => rcd V s' = rcd V s /\ forall l, In l (rcd V s) -> rd (heap V s') l = rd (heap V s) l)); auto.
  intros s1 o Hw1 Ho (Hr & Hrd). destruct (step_shape s1 o) as (_ & _ & _ & Hr1). split; [now rewrite Hr1|].
  intros l Hl. rewrite <- (Hrd l Hl). apply step_frame; auto. apply in_or_app. left. now rewrite Hr.
Qed.

(* a replaced record is a fresh copy: it never aliases the population row it was copied from *)
Theorem replace_is_fresh (s : st) i l : wf s -> nth_error (pop V s) i = Some l ->
  rcd V (step s (ReplaceRecord V i)) = [length (heap V s)] /\ ~ In (length (heap V s)) (pop V s) /\
  rd (heap V (step s (ReplaceRecord V i))) (length (heap V s)) = rd (heap V s) l.
Proof.
  intros (Hal & _) E. cbn [EAStore.step]. rewrite E. unfold alloc. cbn [rcd heap]. split; [reflexivity|]. split.
  - intro Hc. assert (length (heap V s) < length (heap V s))%nat by (apply Hal; apply in_or_app; auto). lia.
  - unfold EAStore.rd. rewrite app_nth2 by lia. rewrite Nat.sub_diag. reflexivity.
Qed.

End Proofs.
