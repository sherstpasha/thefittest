(* QSum.v — sums of lists of rationals: bounds, dividing a list by its sum gives a distribution,
   clipping to an interval, naturals as rationals.
   Adapt, SelfConf and Estimator each define the list sum, and SelfConf / Adapt / DEOps the clip, with the
   bodies used here, so the copies are convertible: [apply] and [exact] use these lemmas on them as they
   stand; where [rewrite] or [lra] has to see one name only, the file states the equation between its
   copy and the one here (SelfConfProofs.qsum_QSum, clip_QSum). *)
From TF Require Import Base.
Open Scope Q_scope.

Lemma Qn_add a b : inject_Z (Z.of_nat (a + b)) == inject_Z (Z.of_nat a) + inject_Z (Z.of_nat b).
Proof. now rewrite Nat2Z.inj_add, inject_Z_plus. Qed.

Lemma Qn_S n : inject_Z (Z.of_nat (S n)) == inject_Z (Z.of_nat n) + 1.
Proof. rewrite <- Nat.add_1_r. apply Qn_add. Qed.

Lemma Qn_nonneg n : 0 <= inject_Z (Z.of_nat n).
Proof. change 0 with (inject_Z 0). rewrite <- Zle_Qle. lia. Qed.

Lemma Qn_pos n : (0 < n)%nat -> 0 < inject_Z (Z.of_nat n).
Proof. intros H. change 0 with (inject_Z 0). rewrite <- Zlt_Qlt. lia. Qed.

Fixpoint qsum (l : list Q) : Q := match l with [] => 0 | x :: t => x + qsum t end.

Lemma Forall2_Qeq_refl l : Forall2 Qeq l l.
Proof. induction l; constructor; [reflexivity|assumption]. Qed.

Lemma qsum_compat l l' : Forall2 Qeq l l' -> qsum l == qsum l'.
Proof. induction 1 as [|a b l l' Hab _ IH]; cbn [qsum]; [reflexivity|]. now rewrite Hab, IH. Qed.

Lemma qsum_nonneg l : Forall (fun x => 0 <= x) l -> 0 <= qsum l.
Proof. induction 1; cbn [qsum]; lra. Qed.

Lemma qsum_pos l : Forall (fun x => 0 <= x) l -> Exists (fun x => 0 < x) l -> 0 < qsum l.
Proof.
  induction 1 as [|y t Hy Ht IH]; intros He; inversion He; subst; cbn [qsum].
  - pose proof (qsum_nonneg t Ht). lra.
  - specialize (IH ltac:(assumption)). lra.
Qed.

Lemma qsum_pos_all l : l <> [] -> Forall (fun x => 0 < x) l -> 0 < qsum l.
Proof.
  intros Hne H. apply qsum_pos.
  - eapply Forall_impl; [|exact H]. cbv beta. intros; lra.
  - destruct H; [congruence|now left].
Qed.

Lemma qsum_map_affine r a c :
  qsum (map (fun x => a + x * c) r) == inject_Z (Z.of_nat (length r)) * a + c * qsum r.
Proof.
  induction r as [|x t IH]; cbn [map qsum length]; [change (inject_Z (Z.of_nat 0)) with 0|rewrite IH, Qn_S]; ring.
Qed.

Lemma qsum_map_div l S : qsum (map (fun x => x / S) l) == qsum l / S.
Proof. unfold Qdiv. induction l as [|x t IH]; cbn [map qsum]; [|rewrite IH]; ring. Qed.

Lemma normalise_dist l : 0 < qsum l ->
  let q := map (fun x => x / qsum l) l in
  length q = length l /\ qsum q == 1 /\
  (Forall (fun x => 0 <= x) l -> Forall (fun x => 0 <= x) q) /\
  (Forall (fun x => 0 < x) l -> Forall (fun x => 0 < x) q).
Proof.
  intros HS q. split; [apply map_length|]. split; [|split].
  - unfold q. rewrite qsum_map_div. field. lra.
  - intros H. apply Forall_map. eapply Forall_impl; [|exact H]. intros x Hx. cbv beta in Hx. apply Qle_shift_div_l; lra.
  - intros H. apply Forall_map. eapply Forall_impl; [|exact H]. intros x Hx. cbv beta in Hx. apply Qlt_shift_div_l; lra.
Qed.

Definition clip (lo hi x : Q) : Q := if Qltb x lo then lo else if Qltb hi x then hi else x.

Lemma clip_cases lo hi x :
  (x < lo /\ clip lo hi x = lo) \/ (lo <= x /\ hi < x /\ clip lo hi x = hi) \/
  (lo <= x /\ x <= hi /\ clip lo hi x = x).
Proof.
  unfold clip. destruct (Qltb x lo) eqn:E1; [apply Qltb_lt in E1; auto|]. apply Qltb_ge in E1.
  destruct (Qltb hi x) eqn:E2; [apply Qltb_lt in E2; auto|]. apply Qltb_ge in E2. auto.
Qed.

Lemma clip_range lo hi x : lo <= hi -> lo <= clip lo hi x /\ clip lo hi x <= hi.
Proof. intros H. destruct (clip_cases lo hi x) as [(?&->)|[(?&?&->)|(?&?&->)]]; lra. Qed.

(* a clipped value exceeds the floor by at most any non-negative bound of the value *)
Lemma clip_upper lo hi x y : 0 <= lo -> lo <= hi -> x <= y -> 0 <= y -> clip lo hi x <= lo + y.
Proof. intros. destruct (clip_cases lo hi x) as [(?&->)|[(?&?&->)|(?&?&->)]]; lra. Qed.

(* clipping to [lo, hi] adds at most lo per entry to the sum of a non-negative list lowered by d *)
Lemma qsum_clip_le lo hi d p : 0 <= lo -> lo <= hi -> 0 <= d -> Forall (fun x => 0 <= x) p ->
  qsum (map (fun x => clip lo hi (x - d)) p) <= inject_Z (Z.of_nat (length p)) * lo + qsum p.
Proof.
  intros Hl0 Hlh Hd Hp. induction Hp as [|x t Hx _ IH]; cbn [map qsum length].
  - change (inject_Z (Z.of_nat 0)) with 0. lra.
  - rewrite Qn_S. pose proof (clip_upper lo hi (x - d) x Hl0 Hlh ltac:(lra) Hx). lra.
Qed.

Lemma qsum_clip_upd_le lo hi d a : 0 <= lo -> lo <= hi -> 0 <= d -> 0 <= a ->
  forall p w, Forall (fun x => 0 <= x) p ->
  qsum (map (fun x => clip lo hi (x - d)) (upd p w (nth w p 0 + a)))
  <= inject_Z (Z.of_nat (length p)) * lo + qsum p + a.
Proof.
  intros Hl0 Hlh Hd Ha. induction p as [|x t IH]; intros w Hp.
  - destruct w; cbn [upd map qsum length]; change (inject_Z (Z.of_nat 0)) with 0; lra.
  - inversion Hp as [|? ? Hx Ht]; subst. destruct w as [|w]; cbn [upd nth map qsum length]; rewrite Qn_S.
    + pose proof (qsum_clip_le lo hi d t Hl0 Hlh Hd Ht).
      pose proof (clip_upper lo hi (x + a - d) (x + a) Hl0 Hlh ltac:(lra) ltac:(lra)). lra.
    + specialize (IH w Ht). pose proof (clip_upper lo hi (x - d) x Hl0 Hlh ltac:(lra) Hx). lra.
Qed.
