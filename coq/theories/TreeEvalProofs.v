(* TreeEvalProofs.v — the stack machine computes the recursive meaning (C09), for ALL well-formed
   trees; batch evaluation is pointwise; set_terminals; structural equality. *)
From Coq Require Import List Lia QArith.
Import ListNotations.
From TF Require Import Tree TreeProofs TreeEval.
Open Scope nat_scope.

Section MachineProofs.
  Context {sym V : Type}.
  Variable arity : sym -> nat.
  Variable interp : sym -> list V -> V.
  Notation run := (run arity interp).
  Notation step := (step arity interp).
  Notation call := (call arity interp).
  Notation eval := (eval interp).
  Notation wft := (wft arity).
  Notation wff := (wff arity).

  Lemma run_app : forall a b st,
    run (a ++ b) st = match run a st with Some st' => run b st' | None => None end.
  Proof.
    induction a as [|s a IH]; intros b st; simpl; auto.
    destruct (step st s); auto.
  Qed.

  Lemma step_full : forall s (vs st : list V), length vs = arity s ->
    step (vs ++ st) s = Some (interp s vs :: st).
  Proof.
    intros s vs st L. unfold step. rewrite app_length.
    rewrite ltb_false by lia.
    rewrite <- L, firstn_app_len, skipn_app_len. reflexivity.
  Qed.

  (* running the reversed encoding of a tree pushes exactly its value; of a forest, the values of
     its trees with the FIRST tree on top: the arguments reach the function in order *)
  Lemma run_flat : forall t : tree sym, wft t = true -> forall st,
    run (rev (flatten t)) st = Some (eval t :: st).
  Proof.
    induction t as [s kids IH] using tree_ind_Forall. intros W st. apply wft_Node in W. destruct W as [L W].
    assert (Q : forall st, run (rev (flats kids)) st = Some (map eval kids ++ st)).
    { clear L. induction IH as [|k r Hk _ IHr]; intros st'; [reflexivity|].
      apply wff_cons in W. destruct W as [Wk Wr].
      rewrite flats_cons, rev_app_distr, run_app, (IHr Wr), (Hk Wk). reflexivity. }
    rewrite flatten_Node. simpl rev. rewrite run_app, Q. simpl run.
    rewrite step_full by (rewrite map_length; auto). reflexivity.
  Qed.

  Theorem call_is_eval : forall (p : list sym) (t : tree sym),
    wft t = true -> flatten t = p -> call p = Some (eval t).
  Proof.
    intros p t Hwf <-. unfold TreeEval.call. rewrite (run_flat t Hwf []). reflexivity.
  Qed.

  Corollary call_wf : forall p, wf arity p -> exists v, call p = Some v.
  Proof. intros p (t & W & E). exists (eval t). apply call_is_eval; auto. Qed.
End MachineProofs.

Section TMap.
  Context {A B : Type}.
  Variable f : A -> B.
  Lemma flatten_tmap : forall t : tree A, flatten (tmap f t) = map f (flatten t).
  Proof.
    induction t as [s kids IH] using tree_ind_Forall. simpl. f_equal.
    induction IH as [|k r Hk _ IHr]; simpl; [reflexivity|]. rewrite map_app, Hk, IHr. reflexivity.
  Qed.
  Lemma wft_tmap (aA : A -> nat) (aB : B -> nat) : (forall s, aB (f s) = aA s) ->
    forall t : tree A, wft aB (tmap f t) = wft aA t.
  Proof.
    intros H. induction t as [s kids IH] using tree_ind_Forall. simpl. rewrite map_length, H. f_equal.
    induction IH as [|k r Hk _ IHr]; simpl; [reflexivity|]. rewrite Hk, IHr. reflexivity.
  Qed.
  Lemma eval_tmap {V} (I : B -> list V -> V) :
    forall t : tree A, eval I (tmap f t) = eval (fun s => I (f s)) t.
  Proof.
    induction t as [s kids IH] using tree_ind_Forall. simpl. rewrite map_map.
    f_equal. apply map_ext_Forall, IH.
  Qed.
End TMap.

Lemma eval_ext {sym V} (I J : sym -> list V -> V) : (forall s args, I s args = J s args) ->
  forall t : tree sym, eval I t = eval J t.
Proof.
  intros H. induction t as [s kids IH] using tree_ind_Forall. simpl. rewrite H.
  f_equal. apply map_ext_Forall, IH.
Qed.

Section Batch.
  Context {sym V W : Type}.
  Variable IV : sym -> list V -> V.      (* interpretation on batches *)
  Variable IW : sym -> list W -> W.      (* interpretation on one sample *)
  Variable h : V -> W.                   (* take one sample out of a batch value *)
  Variable good : V -> Prop.             (* e.g. "has at least k+1 components" *)

  Theorem batch_pointwise_on (okS : sym -> Prop) :
    (forall s args, okS s -> Forall good args -> good (IV s args) /\ h (IV s args) = IW s (map h args)) ->
    forall t : tree sym, Forall okS (flatten t) -> good (eval IV t) /\ h (eval IV t) = eval IW t.
  Proof.
    intros pointwise. induction t as [s kids IH] using tree_ind_Forall. intros H.
    inversion H as [|? ? Hs Hk]; subst. apply Forall_flat_map in Hk.
    assert (K : Forall (fun k => good (eval IV k) /\ h (eval IV k) = eval IW k) kids).
    { rewrite Forall_forall in *. intros k Hin. exact (IH k Hin (Hk k Hin)). }
    destruct (pointwise s (map (eval IV) kids) Hs) as [G E].
    { apply Forall_map. eapply Forall_impl; [|exact K]. intros k [Gk _]. exact Gk. }
    split; [exact G|]. simpl. rewrite E, map_map. f_equal.
    apply map_ext_Forall. eapply Forall_impl; [|exact K]. intros k [_ Ek]. exact Ek.
  Qed.

End Batch.

Lemma nth_map_lt {A B} (f : A -> B) : forall l k d d', k < length l -> nth k (map f l) d' = f (nth k l d).
Proof.
  induction l as [|x l IH]; intros [|k] d d' H; simpl in *; try lia; auto. apply IH; lia.
Qed.
Lemma nth_combine_lt {A B} : forall (la : list A) (lb : list B) k da db,
  k < length la -> k < length lb -> nth k (combine la lb) (da, db) = (nth k la da, nth k lb db).
Proof.
  induction la as [|x la IH]; intros [|y lb] [|k] da db H1 H2; simpl in *; try lia; auto.
  apply IH; lia.
Qed.

Lemma vmap_pt g x k : inb k x = true ->
  inb k (vmap g x) = true /\ proj k (vmap g x) = g (proj k x).
Proof.
  destruct x as [q|l]; simpl; intros H; split; auto.
  - rewrite map_length; auto.
  - apply Nat.ltb_lt in H. apply nth_map_lt; auto.
Qed.

Lemma vmap2_pt g x y k : inb k x = true -> inb k y = true ->
  inb k (vmap2 g x y) = true /\ proj k (vmap2 g x y) = g (proj k x) (proj k y).
Proof.
  destruct x as [a|la], y as [b|lb]; simpl; intros Hx Hy; split; auto;
    try apply Nat.ltb_lt in Hx; try apply Nat.ltb_lt in Hy.
  - rewrite map_length; apply Nat.ltb_lt; auto.
  - apply (nth_map_lt (fun b => g a b)); auto.
  - rewrite map_length; apply Nat.ltb_lt; auto.
  - apply (nth_map_lt (fun a => g a b)); auto.
  - rewrite map_length, combine_length. apply Nat.ltb_lt. lia.
  - rewrite (nth_map_lt (fun ab => g (fst ab) (snd ab)) _ _ (0%Q, 0%Q)) by (rewrite combine_length; lia).
    rewrite nth_combine_lt by lia. reflexivity.
Qed.

Lemma vdiv_pt x y k : inb k x = true -> inb k y = true ->
  inb k (vdiv false x y) = true /\ proj k (vdiv false x y) = sdiv 1%Q (proj k x) (proj k y).
Proof.
  intros Hx Hy. destruct y as [b|lb].
  - unfold vdiv, sdiv. change (proj k (Sc b)) with b. destruct (Qeq_bool b 0).
    + split; reflexivity.
    + apply (vmap_pt (fun a => (a / b)%Q)); auto.
  - apply vmap2_pt; auto.
Qed.

Section NamedOps.
  Variable tr : nat -> Q -> Q.

  (* per-sample meaning of the function identifiers: the operator applied to scalars *)
  Definition sym_op_sample (f : nat) (args : list val) : val := sym_op tr false f args.
  Definition sample (k : nat) (x : val) : val := Sc (proj k x).

  (* taking one sample commutes with the three shapes the named operators have *)
  Lemma vmap_sample g x k : inb k x = true ->
    inb k (vmap g x) = true /\ sample k (vmap g x) = vmap g (sample k x).
  Proof. intros H. destruct (vmap_pt g x k H) as [G E]. split; [exact G|]. unfold sample. rewrite E. reflexivity. Qed.
  Lemma vmap2_sample g x y k : inb k x = true -> inb k y = true ->
    inb k (vmap2 g x y) = true /\ sample k (vmap2 g x y) = vmap2 g (sample k x) (sample k y).
  Proof.
    intros Hx Hy. destruct (vmap2_pt g x y k Hx Hy) as [G E]. split; [exact G|]. unfold sample. rewrite E. reflexivity.
  Qed.
  Lemma vdiv_sample x y k : inb k x = true -> inb k y = true ->
    inb k (vdiv false x y) = true /\ sample k (vdiv false x y) = vdiv false (sample k x) (sample k y).
  Proof.
    intros Hx Hy. destruct (vdiv_pt x y k Hx Hy) as [G E]. split; [exact G|]. unfold sample. rewrite E.
    unfold vdiv, sdiv. simpl. destruct (Qeq_bool (proj k y) 0); reflexivity.
  Qed.

  Theorem sym_op_pointwise : forall f args k, forallb (inb k) args = true ->
    inb k (sym_op tr false f args) = true /\
    sample k (sym_op tr false f args) = sym_op tr false f (map (sample k) args).
  Proof.
    intros f args k H. destruct args as [|x [|y [|z r]]]; simpl in H; rewrite ?andb_true_iff in H.
    - do 11 (destruct f as [|f]; [split; reflexivity|]). split; reflexivity.
    - destruct H as [Hx _].
      do 11 (destruct f as [|f]; [first [exact (vmap_sample _ x k Hx) | split; reflexivity]|]).
      split; reflexivity.
    - destruct H as [Hx [Hy _]].
      do 11 (destruct f as [|f];
             [first [exact (vmap2_sample _ x y k Hx Hy) | exact (vdiv_sample x y k Hx Hy) | split; reflexivity]|]).
      split; reflexivity.
    - do 11 (destruct f as [|f]; [split; reflexivity|]). split; reflexivity.
  Qed.

  (* whole trees: evaluating on a batch and taking sample k = evaluating sample k alone *)
  Definition sample_node (k : nat) (n : node val) : node val :=
    match n with FN f ar => FN f ar | TN nm v => TN nm (sample k v) end.
  Definition term_inb (k : nat) (n : node val) : bool :=
    match n with FN _ _ => true | TN _ v => inb k v end.

  Lemma batch_is_per_sample_inv : forall (t : tree (node val)) k,
    forallb (term_inb k) (flatten t) = true ->
    inb k (eval (ninterp (sym_op tr false)) t) = true /\
    sample k (eval (ninterp (sym_op tr false)) t)
    = eval (fun s => ninterp (sym_op tr false) (sample_node k s)) t.
  Proof.
    intros t k H.
    apply (batch_pointwise_on _ _ (sample k) (fun v => inb k v = true) (fun s => term_inb k s = true)).
    - intros [f ar|nm v] args Hs Ha; [|split; [exact Hs|reflexivity]].
      apply sym_op_pointwise, forallb_forall, Forall_forall, Ha.
    - apply Forall_forall, forallb_forall, H.
  Qed.

End NamedOps.

Section Terminals.
  Context {V : Type}.
  Variable fI : nat -> list V -> V.

  Lemma node_arity_rebind env (n : node V) : node_arity (rebind env n) = node_arity n.
  Proof. destruct n as [f ar|nm v]; simpl; auto. destruct (lookup nm env); reflexivity. Qed.
  Lemma node_name_rebind env (n : node V) : node_name (rebind env n) = node_name n.
  Proof. destruct n as [f ar|nm v]; simpl; auto. destruct (lookup nm env); reflexivity. Qed.
  Lemma ninterp_rebind env (n : node V) args :
    ninterp fI (rebind env n) args = ninterp_env fI env n args.
  Proof. destruct n as [f ar|nm v]; simpl; auto. destruct (lookup nm env); reflexivity. Qed.

  (* calling the re-bound copy = evaluating the tree under the environment *)
  Theorem set_terminals_call : forall (t : tree (node V)) env, wft node_arity t = true ->
    call node_arity (ninterp fI) (set_terminals env (flatten t))
    = Some (eval (ninterp_env fI env) t).
  Proof.
    intros t env Hwf. unfold set_terminals. rewrite <- flatten_tmap.
    rewrite (call_is_eval node_arity (ninterp fI) (flatten (tmap (rebind env) t)) (tmap (rebind env) t)); auto.
    - rewrite eval_tmap. f_equal. apply eval_ext. intros s args. apply ninterp_rebind.
    - rewrite (wft_tmap (rebind env) node_arity node_arity); auto. intros s. apply node_arity_rebind.
  Qed.

  Lemma names_eqb_eq : forall a b, names_eqb a b = true <-> a = b.
  Proof.
    induction a as [|[x1 x2] a IH]; intros [|[y1 y2] b]; simpl; split; intro H; try discriminate; auto.
    - rewrite !andb_true_iff, !Nat.eqb_eq in H. destruct H as [[-> ->] H]. apply IH in H. congruence.
    - inversion H; subst. rewrite !Nat.eqb_refl. simpl. apply IH. reflexivity.
  Qed.

  (* Tree.__eq__ is equality of the name sequences *)
  Theorem tree_eqb_structural : forall p q : list (node V),
    tree_eqb p q = true <-> map node_name p = map node_name q.
  Proof. intros p q. apply names_eqb_eq. Qed.

  (* when equal names mean equal arities on the nodes involved, equal trees have the same shape *)
  Theorem tree_eqb_same_shape : forall p q : list (node V),
    (forall n m, In n p -> In m q -> node_name n = node_name m -> node_arity n = node_arity m) ->
    tree_eqb p q = true -> nargs node_arity p = nargs node_arity q.
  Proof.
    intros p q H E. apply tree_eqb_structural in E. revert q H E.
    induction p as [|n p IH]; intros [|m q] H E; simpl in *; try discriminate; auto.
    inversion E. f_equal.
    - apply H; auto.
    - apply IH; auto.
  Qed.
End Terminals.
