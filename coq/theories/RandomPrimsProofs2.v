(* RandomPrimsProofs2.v — C11 continued: argsort_k / p-best, Sattolo permutation, randint, minmax. *)
From TF Require Import Base RandomPrims.
From Coq Require Import Permutation Qround.
Open Scope Q_scope.

Lemma swap_length {A} (d : A) l i j : length (swap d l i j) = length l.
Proof. unfold swap. now rewrite !upd_length. Qed.

Lemma nth_swap {A} (d : A) l i j x : (i < length l)%nat -> (j < length l)%nat ->
  nth x (swap d l i j) d =
  if (x =? j)%nat then nth i l d else if (x =? i)%nat then nth j l d else nth x l d.
Proof.
  intros Hi Hj. unfold swap.
  destruct (x =? j)%nat eqn:Ej.
  - apply Nat.eqb_eq in Ej. subst x. apply nth_upd_eq. now rewrite upd_length.
  - apply Nat.eqb_neq in Ej. rewrite nth_upd_neq by auto.
    destruct (x =? i)%nat eqn:Ei.
    + apply Nat.eqb_eq in Ei. subst x. now apply nth_upd_eq.
    + apply Nat.eqb_neq in Ei. now rewrite nth_upd_neq by auto.
Qed.

Definition transp (i j x : nat) : nat := if (x =? j)%nat then i else if (x =? i)%nat then j else x.

Lemma transp_invol i j x : transp i j (transp i j x) = x.
Proof.
  unfold transp.
  destruct (x =? j)%nat eqn:E1; [apply Nat.eqb_eq in E1|apply Nat.eqb_neq in E1].
  - subst. destruct (i =? j)%nat eqn:E2; [apply Nat.eqb_eq in E2; auto|]. now rewrite Nat.eqb_refl.
  - destruct (x =? i)%nat eqn:E3; [apply Nat.eqb_eq in E3|apply Nat.eqb_neq in E3].
    + subst. now rewrite Nat.eqb_refl.
    + apply Nat.eqb_neq in E1, E3. now rewrite E1, E3.
Qed.

Lemma nth_swap_transp {A} (d : A) l i j x : (i < length l)%nat -> (j < length l)%nat ->
  nth x (swap d l i j) d = nth (transp i j x) l d.
Proof. intros. rewrite nth_swap by auto. unfold transp. destruct (x =? j)%nat; auto. destruct (x =? i)%nat; auto. Qed.

Lemma swap_perm {A} (d : A) l i j : (i < length l)%nat -> (j < length l)%nat ->
  Permutation l (swap d l i j).
Proof.
  intros Hi Hj. apply (Permutation_nth l (swap d l i j) d). split; [apply swap_length|].
  exists (transp i j). split; [|split].
  - intros x Hx. unfold transp. destruct (x =? j)%nat; auto. destruct (x =? i)%nat; auto.
  - intros x y Hx Hy He. rewrite <- (transp_invol i j x), <- (transp_invol i j y). now rewrite He.
  - intros x Hx. now apply nth_swap_transp.
Qed.

Lemma find_max_from_spec a i : forall n j mx mid,
  (i <= mid <= j)%nat -> (mid < length a)%nat -> (j + n <= length a)%nat -> mx == nth mid a 0 ->
  (forall q, (i <= q < j)%nat -> nth q a 0 <= mx) ->
  let r := find_max_from a j n mx mid in
  (i <= r < length a)%nat /\ (forall q, (i <= q < j + n)%nat -> nth q a 0 <= nth r a 0).
Proof.
  induction n as [|n IH]; intros j mx mid Hmid Hml Hlen Hmx Hall; cbn [find_max_from].
  - cbv zeta. split; [lia|]. intros q Hq. rewrite <- Hmx. apply Hall. lia.
  - destruct (Qltb mx (nth j a 0)) eqn:E.
    + apply Qltb_lt in E.
      destruct (IH (S j) (nth j a 0) j) as (H1 & H2); try lia; try reflexivity.
      * intros q Hq. destruct (Nat.eq_dec q j) as [->|Hne]; [lra|].
        specialize (Hall q ltac:(lia)). lra.
      * cbv zeta in *. split; [lia|]. intros q Hq. apply H2. lia.
    + apply Qltb_ge in E.
      destruct (IH (S j) mx mid) as (H1 & H2); try lia; auto.
      * intros q Hq. destruct (Nat.eq_dec q j) as [->|Hne]; [lra|]. apply Hall. lia.
      * cbv zeta in *. split; [lia|]. intros q Hq. apply H2. lia.
Qed.

(* selection sort on the keys v: the value array is the image of the index array, so only the index array is followed *)
Lemma argsort_k_loop_inv (v : nat -> Q) : forall k i idx,
  (i + k <= length idx)%nat ->
  (forall p q, (p < i)%nat -> (p <= q < length idx)%nat -> v (nth q idx O) <= v (nth p idx O)) ->
  let r := argsort_k_loop k i (map v idx) idx in
  Permutation idx r /\
  (forall p q, (p < i + k)%nat -> (p <= q < length idx)%nat -> v (nth q r O) <= v (nth p r O)).
Proof.
  induction k as [|k IH]; intros i idx Hk Hord; cbn [argsort_k_loop]; cbv zeta.
  - rewrite Nat.add_0_r. auto.
  - assert (Hval : forall p, (p < length idx)%nat -> nth p (map v idx) 0 = v (nth p idx O))
      by (intros; now apply nth_map_default).
    pose proof (find_max_from_spec (map v idx) i (length (map v idx) - i) i (nth i (map v idx) 0) i) as Hm.
    rewrite map_length in *. destruct Hm as (Hm1 & Hm2); try lia; try reflexivity.
    set (mid := find_max_from _ _ _ _ _) in *.
    rewrite (swap_map v O 0 idx i mid) by lia. replace (i + S k)%nat with (S i + k)%nat by lia.
    destruct (IH (S i) (swap O idx i mid)) as [P D]; rewrite ?swap_length in *; [lia| |].
    + intros p q Hp Hq. rewrite !nth_swap_transp by lia.
      assert (Hq' : (i <= transp i mid q < length idx)%nat \/ transp i mid q = q)
        by (unfold transp; destruct (q =? mid)%nat, (q =? i)%nat; lia).
      destruct (Nat.eq_dec p i) as [->|Hpi].
      * (* the new entry at i is the maximum over [i, n) *)
        replace (transp i mid i) with mid
          by (unfold transp; rewrite Nat.eqb_refl; destruct (Nat.eqb_spec i mid); congruence).
        rewrite <- !Hval by lia. apply Hm2. lia.
      * (* position p < i is untouched and q stays at or after it *)
        replace (transp i mid p) with p
          by (unfold transp; destruct (Nat.eqb_spec p mid), (Nat.eqb_spec p i); lia).
        apply Hord; lia.
    + split; [|exact D]. eapply Permutation_trans; [apply (swap_perm O idx i mid); lia|exact P].
Qed.

Theorem argsort_k_spec a k : (k <= length a)%nat ->
  let r := argsort_k a k in
  length r = length a /\ Permutation (seq 0 (length a)) r /\
  (forall p q, (p < k)%nat -> (p <= q < length a)%nat -> nth (nth q r O) a 0 <= nth (nth p r O) a 0).
Proof.
  intros Hk. unfold argsort_k.
  destruct (argsort_k_loop_inv (fun j => nth j a 0) k 0 (seq 0 (length a))) as [P D];
    rewrite ?map_nth_seq, ?seq_length in *; [lia|lia|].
  split; [|auto]. now rewrite <- (Permutation_length P), seq_length.
Qed.

(* p-best set: exactly count = max(1, floor(p*n)) indices, distinct, each at least as fit as every
   index outside the set *)
Theorem find_pbest_spec a p : (pbest_count p (length a) <= length a)%nat ->
  let s := find_pbest_id a p in
  length s = pbest_count p (length a) /\ NoDup s /\
  (forall x, In x s -> (x < length a)%nat) /\
  (forall x y, In x s -> (y < length a)%nat -> ~ In y s -> nth y a 0 <= nth x a 0).
Proof.
  intros Hc. cbv zeta. unfold find_pbest_id. set (k := pbest_count p (length a)) in *.
  destruct (argsort_k_spec a k Hc) as (Hl & Hp & Hord). set (r := argsort_k a k) in *.
  assert (Hnd : NoDup r). { eapply Permutation_NoDup; [exact Hp|apply seq_NoDup]. }
  split; [rewrite firstn_length; lia|]. split; [apply NoDup_firstn; auto|]. split.
  - intros x Hx. assert (In x r) by (eapply In_firstn; eauto).
    apply (Permutation_in _ (Permutation_sym Hp)) in H. apply in_seq in H. lia.
  - intros x y Hx Hy Hny.
    destruct (In_nth _ _ O Hx) as (px & Hpx & Hex). rewrite firstn_length in Hpx.
    assert (Hyr : In y r). { apply (Permutation_in _ Hp). apply in_seq. lia. }
    destruct (In_nth _ _ O Hyr) as (py & Hpy & Hey).
    assert (Hpyk : (k <= py)%nat).
    { destruct (Nat.lt_ge_cases py k) as [Hlt|]; auto. exfalso. apply Hny.
      rewrite <- Hey. rewrite <- (firstn_skipn k r) at 1.
      rewrite app_nth1 by (rewrite firstn_length; lia). apply nth_In. rewrite firstn_length. lia. }
    rewrite <- Hey.
    assert (Hxr : nth px r O = x).
    { rewrite <- Hex. rewrite <- (firstn_skipn k r) at 1. rewrite app_nth1 by (rewrite firstn_length; lia). reflexivity. }
    rewrite <- Hxr. apply Hord; lia.
Qed.

Lemma Qfloor'_eq q : Qfloor' q = Qfloor q.
Proof. destruct q; reflexivity. Qed.

Lemma Qfloor'_range q n : 0 <= q -> q < inject_Z n -> (0 <= Qfloor' q < n)%Z.
Proof.
  intros H0 H1. rewrite Qfloor'_eq. split.
  - change 0%Z with (Qfloor 0). now apply Qfloor_resp_le.
  - rewrite Zlt_Qlt. eapply Qle_lt_trans; [apply Qfloor_le|exact H1].
Qed.

Lemma Qfloor'_bounds u n : 0 <= u -> u < 1 -> (0 < n)%Z ->
  (0 <= Qfloor' (u * inject_Z n) < n)%Z.
Proof.
  intros H0 H1 Hn. rewrite Zlt_Qlt in Hn. change (inject_Z 0) with 0 in Hn. apply Qfloor'_range; nra.
Qed.

Theorem randint_range low high : (low < high)%Z -> forall size ds r ds',
  valid_draws ds -> randint low high size ds = Some (r, ds') ->
  length r = size /\ Forall (fun v => (low <= v < high)%Z) r.
Proof.
  intros Hlh. induction size as [|k IH]; intros ds r ds' Hv H; cbn [randint] in H; minv H; [auto|].
  apply popU_inv in E as (_ & Hu0 & Hu1 & Hv1); [|exact Hv].
  destruct (IH _ _ _ Hv1 E0) as (Hl & Hall). split; [simpl; lia|]. constructor; [|exact Hall].
  assert (Hn : 0 < inject_Z (high - low)) by (change 0 with (inject_Z 0); rewrite <- Zlt_Qlt; lia).
  destruct (Qfloor'_range (inject_Z (high - low) * q) (high - low)); [nra|nra|lia].
Qed.

(* the index-level shuffle: js = [j_i; j_(i-1); ...; j_1] *)
Fixpoint sat {A} (d : A) (i : nat) (js : list nat) (arr : list A) : list A :=
  match i, js with
  | S i', j :: js' => sat d i' js' (swap d arr (S i') j)
  | _, _ => arr
  end.
Fixpoint js_ok (i : nat) (js : list nat) : Prop :=
  match i, js with
  | S i', j :: js' => (j <= i')%nat /\ js_ok i' js'
  | O, [] => True
  | _, _ => False
  end.

Lemma sattolo_loop_sat {A} (d : A) : forall i arr ds r ds',
  valid_draws ds -> sattolo_loop d i arr ds = Some (r, ds') ->
  exists js, js_ok i js /\ r = sat d i js arr.
Proof.
  induction i as [|i IH]; intros arr ds r ds' Hv H; cbn [sattolo_loop] in H.
  - inversion H. exists []. split; [exact I|reflexivity].
  - apply bind_inv in H as (u & ds1 & E & H). apply popU_inv in E as (_ & Hu0 & Hu1 & Hv1); [|exact Hv].
    pose proof (Qfloor'_bounds u (Z.of_nat (S i)) Hu0 Hu1 ltac:(lia)) as Hj.
    destruct (IH _ _ _ _ Hv1 H) as (js & Hok & Hr). eexists (_ :: js). split; [|exact Hr].
    split; [lia|exact Hok].
Qed.

Lemma sat_perm_list {A} (d : A) : forall i js arr, (i < length arr)%nat -> js_ok i js ->
  Permutation arr (sat d i js arr) /\ length (sat d i js arr) = length arr.
Proof.
  induction i as [|i IH]; intros [|j js] arr Hi Hok; cbn [sat]; try (split; reflexivity).
  destruct Hok as (Hj & Hok). destruct (IH js (swap d arr (S i) j)) as (Hp & Hl); [rewrite swap_length; lia|exact Hok|].
  rewrite swap_length in Hl. split; [|exact Hl].
  eapply Permutation_trans; [apply (swap_perm d arr (S i) j); lia|exact Hp].
Qed.

Theorem sattolo_perm {A} (d : A) arr ds r ds' :
  valid_draws ds -> sattolo d arr ds = Some (r, ds') -> Permutation arr r.
Proof.
  intros Hv H. unfold sattolo in H. destruct (sattolo_loop_sat d _ _ _ _ _ Hv H) as (js & Hok & ->).
  destruct arr as [|x t]; [destruct js; reflexivity|]. apply sat_perm_list; [simpl; lia|exact Hok].
Qed.

Lemma fold_best_spec (le : Q -> Q -> Prop) (ltb : Q -> Q -> bool) :
  (forall a, le a a) -> (forall a b c, le a b -> le b c -> le a c) ->
  (forall a b, if ltb a b then le a b else le b a) ->
  forall l m0, let m := fold_left (fun m x => if ltb m x then x else m) l m0 in
  le m0 m /\ Forall (fun x => le x m) l.
Proof.
  intros R T D. induction l as [|x t IH]; intros m0; cbn [fold_left]; cbv zeta; [auto|].
  specialize (D m0 x). destruct (ltb m0 x).
  - destruct (IH x) as [H1 H2]. eauto.
  - destruct (IH m0) as [H1 H2]. eauto.
Qed.

Lemma Qltb_total a b : if Qltb a b then a <= b else b <= a.
Proof. destruct (Qltb a b) eqn:E; [apply Qlt_le_weak, Qltb_lt, E|apply Qltb_ge, E]. Qed.

Lemma Qmax_list_ge l : Forall (fun x => x <= Qmax_list l) l.
Proof. exact (proj2 (fold_best_spec Qle Qltb Qle_refl Qle_trans Qltb_total l (hd 0 l))). Qed.

Lemma Qmin_list_le l : Forall (fun x => Qmin_list l <= x) l.
Proof.
  exact (proj2 (fold_best_spec (fun a b => b <= a) (fun a b => Qltb b a) Qle_refl
                  (fun a b c H1 H2 => Qle_trans c b a H2 H1) (fun a b => Qltb_total b a) l (hd 0 l))).
Qed.

Theorem minmax_scale_spec l : l <> [] ->
  let s := minmax_scale l in
  length s = length l /\ Forall (fun y => 0 <= y /\ y <= 1) s /\
  (Qmax_list l == Qmin_list l -> Forall (fun y => y = 1) s) /\
  (~ Qmax_list l == Qmin_list l ->
     (forall i, (i < length l)%nat -> nth i l 0 == Qmin_list l -> nth i s 0 == 0) /\
     (forall i, (i < length l)%nat -> nth i l 0 == Qmax_list l -> nth i s 0 == 1)).
Proof.
  intros Hne. cbv zeta. unfold minmax_scale.
  pose proof (Forall_and (Qmax_list_ge l) (Qmin_list_le l)) as Hab.
  set (mx := Qmax_list l) in *. set (mn := Qmin_list l) in *.
  destruct (Qeq_bool mx mn) eqn:E; rewrite map_length; (split; [reflexivity|]).
  - apply Qeq_bool_iff in E. split; [|split; [intros _|contradiction]].
    + apply Forall_map, Forall_forall. intros; lra.
    + now apply Forall_map, Forall_forall.
  - assert (Hneq : ~ mx == mn) by (intro Hc; apply Qeq_bool_iff in Hc; congruence).
    assert (Hlt : mn < mx).
    { inversion Hab as [E0|x0 t [A B] _ E0]; [congruence|]. apply Qnot_le_lt. intro. apply Hneq, Qle_antisym; lra. }
    split; [|split; [contradiction|intros _]].
    + apply Forall_map. eapply Forall_impl; [|exact Hab]. intros x [A B].
      split; [apply Qle_shift_div_l|apply Qle_shift_div_r]; lra.
    + split; intros i Hi Hv; rewrite (nth_map_default _ l i 0 0) by auto; rewrite Hv; field; lra.
Qed.

(* [coins] of BinaryOps and [qcoins] of DEOps are this function; binomialGA and binomial are [binomial_gen] at Z and Q *)
Fixpoint flips (p : Q) (n : nat) : M (list bool) :=
  match n with
  | O => ret []
  | S k => b <- flip_coin p ;; r <- flips p k ;; ret (b :: r)
  end.
Definition binom_child {A} (d : A) (individ mutant : list A) (j : Z) (cs : list bool) : list A :=
  map (fun i => if nth i cs false || (Z.of_nat i =? j)%Z then nth i mutant d else nth i individ d)
      (seq 0 (length individ)).
Definition binomial_gen {A} (d : A) (individ mutant : list A) (CR : Q) : M (list A) :=
  js <- randint 0 (Z.of_nat (length individ)) 1 ;;
  cs <- flips CR (length individ) ;;
  ret (binom_child d individ mutant (nth 0 js 0%Z) cs).

Lemma flips_length p : forall n ds cs ds', flips p n ds = Some (cs, ds') -> length cs = n.
Proof.
  induction n as [|n IH]; intros ds cs ds' H; cbn [flips] in H; minv H; [reflexivity|].
  simpl. f_equal. eapply IH; eauto.
Qed.

Theorem binomial_gen_structure {A} (d : A) individ mutant CR ds child ds' :
  valid_draws ds -> (0 < length individ)%nat ->
  binomial_gen d individ mutant CR ds = Some (child, ds') ->
  length child = length individ /\
  exists j, (j < length individ)%nat /\ nth j child d = nth j mutant d /\
    forall i, (i < length individ)%nat -> nth i child d = nth i mutant d \/ nth i child d = nth i individ d.
Proof.
  intros Hv Hn H. unfold binomial_gen in H. minv H.
  destruct (randint_range 0 (Z.of_nat (length individ)) ltac:(lia) 1 _ _ _ Hv E) as (Hl & Hr).
  destruct l as [|j [|? ?]]; simpl in Hl; try lia. inversion Hr as [|? ? Hj _]; subst. cbn [nth].
  unfold binom_child. split; [now rewrite map_length, seq_length|].
  exists (Z.to_nat j). split; [lia|]. split.
  - rewrite map_seq_nth, Z2Nat.id, Z.eqb_refl, orb_true_r by lia. reflexivity.
  - intros i Hi. rewrite map_seq_nth by exact Hi. destruct (_ || _); auto.
Qed.
