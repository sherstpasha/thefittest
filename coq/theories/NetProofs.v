(* NetProofs.v — C13, part 1: set/list lemmas, the dispatch of __add__/__gt__ terminates,
   the layering invariant and its preservation by add_plain / gt_plain.                           *)
From TF Require Export SortLemmas.
From TF Require Import Base Net NetAlgebra.
From Coq Require Import Sorted.
Local Open Scope nat_scope.

Lemma mem_In x l : mem x l = true <-> In x l.
Proof.
  unfold mem. rewrite existsb_exists. split.
  - intros [y [H E]]. apply Nat.eqb_eq in E. subst; auto.
  - intro H. exists x. split; auto. apply Nat.eqb_refl.
Qed.
Lemma mem_false x l : mem x l = false <-> ~ In x l.
Proof. rewrite <- mem_In. destruct (mem x l); split; congruence. Qed.
Lemma union_In a b x : In x (union a b) <-> In x a \/ In x b.
Proof.
  unfold union. rewrite in_app_iff, filter_In, negb_true_iff, mem_false.
  split; [tauto|]. intros [H|H]; auto. destruct (in_dec Nat.eq_dec x a); auto.
Qed.
Lemma diff_In a b x : In x (diff a b) <-> In x a /\ ~ In x b.
Proof. unfold diff. rewrite filter_In, negb_true_iff, mem_false. tauto. Qed.
Lemma subset_spec a b : subset a b = true <-> incl a b.
Proof.
  unfold subset. rewrite forallb_forall. split; intros H x Hx; apply mem_In, H, Hx.
Qed.
Lemma set_eq_spec a b : set_eq a b = true <-> (forall x, In x a <-> In x b).
Proof.
  unfold set_eq. rewrite andb_true_iff, !subset_spec. split.
  - intros [H1 H2] x; split; auto.
  - intro H; split; intros x; apply H.
Qed.
Lemma is_nil_true {A} (l : list A) : is_nil l = true <-> l = [].
Proof. destruct l; simpl; split; congruence. Qed.
Lemma is_nil_false {A} (l : list A) : is_nil l = false <-> l <> [].
Proof. destruct l; simpl; split; congruence. Qed.

Lemma filter_none {A} (f : A -> bool) l : (forall x, In x l -> f x = false) -> filter f l = [].
Proof.
  induction l as [|h t IH]; simpl; intro H; auto.
  rewrite (H h) by auto. apply IH. auto.
Qed.
Lemma NoDup_app_intro {A} (l1 l2 : list A) :
  NoDup l1 -> NoDup l2 -> (forall x, In x l1 -> In x l2 -> False) -> NoDup (l1 ++ l2).
Proof.
  induction l1 as [|h t IH]; simpl; intros H1 H2 H; auto.
  inversion H1; subst. constructor.
  - rewrite in_app_iff. intros [Hc|Hc]; auto. apply (H h); auto.
  - apply IH; auto. intros x Hx Hy. apply (H x); auto.
Qed.
Lemma NoDup_app_elim {A} (l1 l2 : list A) :
  NoDup (l1 ++ l2) -> NoDup l1 /\ NoDup l2 /\ (forall x, In x l1 -> In x l2 -> False).
Proof.
  induction l1 as [|h t IH]; simpl; intro H.
  - repeat split; auto. constructor.
  - inversion H; subst. destruct (IH H3) as [A1 [A2 A3]]. repeat split; auto.
    + constructor; auto. intro Hc. apply H2. apply in_app_iff; auto.
    + intros x [Hx|Hx] Hy.
      * subst. apply H2. apply in_app_iff; auto.
      * apply (A3 x); auto.
Qed.
Lemma NoDup_union a b : NoDup a -> NoDup b -> NoDup (union a b).
Proof.
  intros Ha Hb. unfold union. apply NoDup_app_intro; auto.
  - apply NoDup_filter; auto.
  - intros x Hx Hy. apply filter_In in Hy. destruct Hy as [_ Hy].
    apply negb_true_iff, mem_false in Hy. auto.
Qed.
Lemma NoDup_diff a b : NoDup a -> NoDup (diff a b).
Proof. apply NoDup_filter. Qed.
Lemma union_nil_r a : union a [] = a.
Proof. apply app_nil_r. Qed.
Lemma union_disjoint a b : (forall x, In x a -> In x b -> False) -> union a b = a ++ b.
Proof.
  intro H. unfold union. f_equal. induction b as [|h t IH]; simpl; auto.
  destruct (mem h a) eqn:E.
  - apply mem_In in E. exfalso. apply (H h); simpl; auto.
  - simpl. f_equal. apply IH. intros x Hx Hy. apply (H x); simpl; auto.
Qed.
Lemma union_nil_l a : union [] a = a.
Proof. apply (union_disjoint [] a). intros x []. Qed.
Lemma union_absorb a b : incl b a -> union a b = a.
Proof.
  intro H. unfold union. rewrite filter_none; [apply app_nil_r|].
  intros x Hx. apply negb_false_iff, mem_In, H, Hx.
Qed.

Lemma assemble_In hs x : In x (assemble hs) <-> In x (concat hs).
Proof.
  induction hs as [|h t IH]; simpl; [tauto|].
  rewrite union_In, in_app_iff, IH. tauto.
Qed.
Lemma NoDup_assemble hs : Forall (@NoDup nat) hs -> NoDup (assemble hs).
Proof. induction 1; simpl. constructor. apply NoDup_union; auto. Qed.

Lemma In_fst {A B} (l : list (A * B)) a : In a (map fst l) <-> exists b, In (a, b) l.
Proof.
  rewrite in_map_iff. split.
  - intros [[x y] [E H]]. simpl in E. subst. eauto.
  - intros [b H]. exists (a, b). auto.
Qed.
Lemma In_snd {A B} (l : list (A * B)) b : In b (map snd l) <-> exists a, In (a, b) l.
Proof.
  rewrite in_map_iff. split.
  - intros [[x y] [E H]]. simpl in E. subst. eauto.
  - intros [a H]. exists (a, b). auto.
Qed.

Lemma pair_eqb_eq p q : pair_eqb p q = true <-> p = q.
Proof.
  unfold pair_eqb. destruct p, q; simpl. rewrite andb_true_iff, !Nat.eqb_eq.
  split; [intros [-> ->]; auto | intro H; inversion H; auto].
Qed.
Lemma existsb_pair_In c l : existsb (pair_eqb c) l = true <-> In c l.
Proof.
  rewrite existsb_exists. split.
  - intros [d [H E]]. apply pair_eqb_eq in E. subst. auto.
  - intro H. exists c. split; auto. apply pair_eqb_eq. auto.
Qed.
Definition plt (p q : nat * nat) : Prop := pair_ltb p q = true.
Lemma plt_spec p q : plt p q <-> fst p < fst q \/ (fst p = fst q /\ snd p < snd q).
Proof.
  unfold plt, pair_ltb. rewrite orb_true_iff, andb_true_iff, !Nat.ltb_lt, Nat.eqb_eq. tauto.
Qed.
Lemma plt_irrefl p : ~ plt p p.
Proof. rewrite plt_spec. lia. Qed.
Lemma plt_trans p q r : plt p q -> plt q r -> plt p r.
Proof. rewrite !plt_spec. lia. Qed.
Lemma plt_total p q : pair_eqb p q = false -> pair_ltb p q = false -> plt q p.
Proof.
  intros H1 H2. rewrite plt_spec.
  assert (A : ~ plt p q) by (unfold plt; congruence). rewrite plt_spec in A.
  assert (B : p <> q) by (intro E; apply pair_eqb_eq in E; congruence).
  destruct p as [a b], q as [c d]; simpl in *.
  destruct (Nat.eq_dec a c); [subst|lia].
  destruct (Nat.eq_dec b d); [subst; congruence|lia].
Qed.

Lemma sort_dedup_In l y : In y (sort_dedup l) <-> In y l.
Proof. apply (sort_dedup_by_In pair_eqb pair_ltb), pair_eqb_eq. Qed.
Lemma sort_dedup_sorted l : StronglySorted plt (sort_dedup l).
Proof.
  apply (sort_dedup_by_sorted plt plt_trans pair_eqb pair_ltb); auto.
  - apply pair_eqb_eq. - apply plt_total.
Qed.
Lemma sort_dedup_NoDup l : NoDup (sort_dedup l).
Proof. apply (sorted_NoDup plt), sort_dedup_sorted. apply plt_irrefl. Qed.
Lemma sort_dedup_length l : length (sort_dedup l) <= length l.
Proof. apply (sort_dedup_by_length pair_eqb pair_ltb). Qed.
Lemma sort_dedup_ext l l' : (forall c, In c l <-> In c l') -> sort_dedup l = sort_dedup l'.
Proof.
  intro H. apply (sorted_ext plt); try apply sort_dedup_sorted.
  - apply plt_irrefl.
  - intros x y Hxy Hyx. apply (plt_irrefl x). eapply plt_trans; eauto.
  - intro c. rewrite !sort_dedup_In. apply H.
Qed.

(* The mutual recursion __add__ <-> __gt__ ends after at most two redirections: a redirection
   happens only between an inputs-only and a hidden-only operand, and the call it makes is of a
   kind that does not redirect again more than once.  With OPFUEL = 3 the result is always one of
   the three general branches, whatever fuel is added. *)
Lemma net_op_total fixed o a b : exists r,
  (forall k, net_op fixed (OPFUEL + k) o a b = Some r) /\
  (r = gt_plain a b \/ r = gt_plain b a \/ r = add_plain a b).
Proof.
  unfold OPFUEL. cbn [Nat.add net_op].
  destruct o, (has (n_in a)), (has (n_hid a)), (has (n_in b)), (has (n_hid b)); cbn [andb negb];
    try destruct (negb fixed || is_nil (n_out b)); eauto 6.
Qed.

(* one call of __gt__ that takes the general branch: the right operand is not an inputs-only
   net, or (after the repair) it has outputs while the left one is not hidden-only *)
Lemma net_op_gt_plain fixed a b :
  has (n_in b) && negb (has (n_hid b)) = false \/
  (has (n_in a) = true /\ fixed = true /\ n_out b <> []) ->
  net_op fixed OPFUEL true a b = Some (gt_plain a b).
Proof.
  intros [H|[Ha [-> Hb]]]; unfold OPFUEL; simpl.
  - rewrite H, !andb_false_r. reflexivity.
  - apply is_nil_false in Hb. rewrite Ha, Hb, !andb_false_r. reflexivity.
Qed.

Lemma list_prod_nil_r {A B} (l : list A) : list_prod l (@nil B) = [].
Proof. induction l; simpl; auto. Qed.
Lemma get_connect_prod l r : fst (get_connect l r) = list_prod l r.
Proof.
  unfold get_connect. destruct l as [|a l]; simpl; auto.
  destruct r as [|b r]; simpl; auto. symmetry. apply (list_prod_nil_r (a :: l)).
Qed.
Lemma get_connect_In l r x y : In (x, y) (fst (get_connect l r)) <-> In x l /\ In y r.
Proof. rewrite get_connect_prod. apply in_prod_iff. Qed.
Lemma get_connect_len l r : snd (get_connect l r) = length (fst (get_connect l r)).
Proof. unfold get_connect. destruct (is_nil l || is_nil r); reflexivity. Qed.

Definition gt_new (a b : net) := fst (get_connect (gt_from a) (gt_to b)).
Lemma gt_plain_in a b : n_in (gt_plain a b) = union (n_in a) (n_in b).
Proof. unfold gt_plain. destruct (get_connect _ _). reflexivity. Qed.
Lemma gt_plain_hid a b : n_hid (gt_plain a b) = n_hid a ++ n_hid b.
Proof. unfold gt_plain. destruct (get_connect _ _). reflexivity. Qed.
Lemma gt_plain_out a b : n_out (gt_plain a b) = union (n_out a) (n_out b).
Proof. unfold gt_plain. destruct (get_connect _ _). reflexivity. Qed.
Lemma gt_plain_con a b : n_con (gt_plain a b) = n_con a ++ n_con b ++ gt_new a b.
Proof. unfold gt_plain, gt_new. destruct (get_connect _ _). reflexivity. Qed.
Lemma gt_plain_nw a b : n_nw (gt_plain a b) = n_nw a + n_nw b + length (gt_new a b).
Proof.
  unfold gt_plain, gt_new. pose proof (get_connect_len (gt_from a) (gt_to b)) as H.
  destruct (get_connect _ _). simpl in *. subst. reflexivity.
Qed.
Lemma gt_plain_act a b : n_act (gt_plain a b) = amerge (n_act a) (n_act b).
Proof. unfold gt_plain. destruct (get_connect _ _). reflexivity. Qed.
Lemma hidden_gt_plain a b : hidden (gt_plain a b) = hidden a ++ hidden b.
Proof. unfold hidden. rewrite gt_plain_hid. apply concat_app. Qed.
Lemma gt_new_In a b x y : In (x, y) (gt_new a b) <-> In x (gt_from a) /\ In y (gt_to b).
Proof. apply get_connect_In. Qed.

Lemma gt_from_In a x :
  In x (gt_from a) <-> (In x (n_in a) \/ In x (hidden a)) /\ ~ In x (map fst (n_con a)).
Proof. unfold gt_from. rewrite diff_In, union_In, assemble_In. reflexivity. Qed.
Lemma gt_to_sub b y : In y (gt_to b) -> In y (hidden b) \/ In y (n_out b).
Proof.
  unfold gt_to. rewrite diff_In, union_In, assemble_In. tauto.
Qed.
Lemma gt_plain_outgoing a b y v : In y (gt_to b) -> In v (n_in a) \/ In v (hidden a) ->
  exists z, In (v, z) (n_con (gt_plain a b)).
Proof.
  intros Hy Hv. rewrite gt_plain_con.
  destruct (in_dec Nat.eq_dec v (map fst (n_con a))) as [Hs|Hs].
  - apply In_fst in Hs. destruct Hs as [z Hz]. exists z. apply in_app_iff; auto.
  - exists y. rewrite !in_app_iff, gt_new_In, gt_from_In. auto.
Qed.

Lemma map_fst_filter (f : nat -> bool) (a : list (nat * nat)) :
  map fst (filter (fun p => f (fst p)) a) = filter f (map fst a).
Proof.
  induction a as [|h t IH]; simpl; auto. destruct (f (fst h)); simpl; rewrite IH; auto.
Qed.
Lemma amerge_keys a b :
  map fst (amerge a b) = diff (map fst a) (map fst b) ++ map fst b.
Proof.
  unfold amerge, diff. rewrite map_app.
  rewrite (map_fst_filter (fun k => negb (mem k (map fst b)))). reflexivity.
Qed.
Lemma amerge_In a b k : In k (map fst (amerge a b)) <-> In k (map fst a) \/ In k (map fst b).
Proof.
  rewrite amerge_keys, in_app_iff, diff_In.
  destruct (in_dec Nat.eq_dec k (map fst b)); tauto.
Qed.
Lemma amerge_NoDup a b :
  NoDup (map fst a) -> NoDup (map fst b) -> NoDup (map fst (amerge a b)).
Proof.
  intros Ha Hb. rewrite amerge_keys. apply NoDup_app_intro; auto.
  - apply NoDup_diff; auto.
  - intros x Hx Hy. apply diff_In in Hx. tauto.
Qed.
Lemma unit_keys (ids : list nat) (act : nat) : map fst (map (fun i => (i, act)) ids) = ids.
Proof. rewrite map_map. simpl. apply map_id. Qed.

Lemma alookup_None k a : alookup k a = None <-> ~ In k (map fst a).
Proof.
  induction a as [|[k' c] r IH]; simpl; [tauto|].
  destruct (k =? k') eqn:E.
  - apply Nat.eqb_eq in E. subst. split; [discriminate|tauto].
  - apply Nat.eqb_neq in E. rewrite IH. intuition.
Qed.
Lemma alookup_In k c a : NoDup (map fst a) -> (alookup k a = Some c <-> In (k, c) a).
Proof.
  induction a as [|[k' c'] r IH]; simpl; intro ND.
  - split; [discriminate|tauto].
  - inversion ND; subst. destruct (k =? k') eqn:E.
    + apply Nat.eqb_eq in E. subst k'. split.
      * intro H. inversion H; auto.
      * intros [H|H]; [inversion H; auto|]. exfalso. apply H1. apply In_fst. eauto.
    + apply Nat.eqb_neq in E. rewrite IH by auto. split; auto.
      intros [H|H]; auto. inversion H; congruence.
Qed.
Lemma alookup_Some k a : In k (map fst a) <-> exists c, alookup k a = Some c.
Proof.
  destruct (alookup k a) eqn:E.
  - split; eauto. intros _. destruct (in_dec Nat.eq_dec k (map fst a)) as [Hi|Hi]; auto.
    apply alookup_None in Hi. congruence.
  - apply alookup_None in E. split; [tauto|intros [c Hc]; discriminate].
Qed.
(* {**a, **b}[k] *)
Lemma alookup_amerge k a b :
  alookup k (amerge a b) = if mem k (map fst b) then alookup k b else alookup k a.
Proof.
  unfold amerge. induction a as [|[k' c] r IH]; simpl.
  - destruct (mem k (map fst b)) eqn:E; auto. apply alookup_None, mem_false, E.
  - destruct (Nat.eqb_spec k k') as [->|Hne].
    + (* the entry of a under k itself: dropped by the filter iff b has the key *)
      destruct (mem k' (map fst b)); simpl.
      * exact IH.
      * rewrite Nat.eqb_refl. reflexivity.
    + (* another key: kept or dropped, the lookup of k passes it by *)
      apply Nat.eqb_neq in Hne. destruct (mem k' (map fst b)); simpl; rewrite ?Hne; exact IH.
Qed.
Lemma alookup_unit k T (a : nat) : In k T -> alookup k (map (fun i => (i, a)) T) = Some a.
Proof.
  induction T as [|h t IH]; simpl; [tauto|]. intros [->|H].
  - rewrite Nat.eqb_refl. auto.
  - destruct (k =? h); auto.
Qed.

Definition level (n : net) (v k : nat) : Prop :=
  (k = 0 /\ In v (n_in n)) \/
  (exists i L, k = S i /\ nth_error (n_hid n) i = Some L /\ In v L) \/
  (k = S (length (n_hid n)) /\ In v (n_out n)).

Lemma level_in n v : In v (n_in n) -> level n v 0.
Proof. left. auto. Qed.
Lemma level_hid n i L v : nth_error (n_hid n) i = Some L -> In v L -> level n v (S i).
Proof. right; left. eauto. Qed.
Lemma level_out n v : In v (n_out n) -> level n v (S (length (n_hid n))).
Proof. right; right. auto. Qed.

Lemma In_concat_nth (hs : list (list nat)) v :
  In v (concat hs) <-> exists i L, nth_error hs i = Some L /\ In v L.
Proof.
  rewrite in_concat. split.
  - intros [L [HL Hv]]. apply In_nth_error in HL. destruct HL as [i Hi]. eauto.
  - intros [i [L [Hi Hv]]]. exists L. split; auto. eapply nth_error_In; eauto.
Qed.
Lemma nth_error_lt {A} (l : list A) i x : nth_error l i = Some x -> i < length l.
Proof. intro H. apply nth_error_Some. congruence. Qed.

Lemma level_node n v k : level n v k ->
  (k = 0 /\ In v (n_in n)) \/ (0 < k <= length (n_hid n) /\ In v (hidden n)) \/
  (k = S (length (n_hid n)) /\ In v (n_out n)).
Proof.
  intros [H|[[i [L [-> [Hi Hv]]]]|H]]; auto.
  right; left. pose proof (nth_error_lt _ _ _ Hi). split; [lia|]. apply In_concat_nth. eauto.
Qed.
Lemma hidden_level n v : In v (hidden n) -> exists k, level n v k /\ 0 < k <= length (n_hid n).
Proof.
  intro H. apply In_concat_nth in H. destruct H as [i [L [Hi Hv]]].
  exists (S i). pose proof (nth_error_lt _ _ _ Hi). split; [eapply level_hid; eauto|lia].
Qed.

Lemma level_mono a r v k :
  incl (n_in a) (n_in r) ->
  (forall i L, nth_error (n_hid a) i = Some L -> exists L', nth_error (n_hid r) i = Some L' /\ incl L L') ->
  n_out a = [] \/ (length (n_hid r) = length (n_hid a) /\ incl (n_out a) (n_out r)) ->
  level a v k -> level r v k.
Proof.
  intros Hi Hh Ho [[-> H]|[[i [L [-> [HL Hv]]]]|[-> H]]].
  - apply level_in; auto.
  - destruct (Hh i L HL) as [L' [HL' Hs]]. eapply level_hid; eauto.
  - destruct Ho as [Ho|[<- Ho]]; [rewrite Ho in H; destruct H|]. apply level_out; auto.
Qed.

(* the layering invariant (nv = number of input columns) *)
Record LInv (nv : nat) (n : net) : Prop := {
  li_in  : forall v, In v (n_in n) -> v < nv;
  li_ho  : forall v, In v (hidden n ++ n_out n) -> nv <= v;
  li_ndi : NoDup (n_in n);
  li_ndh : NoDup (hidden n ++ n_out n);
  li_con : forall a b, In (a, b) (n_con n) -> exists ka kb, level n a ka /\ level n b kb /\ ka < kb;
  li_nw  : n_nw n = length (n_con n);
  li_ak  : NoDup (map fst (n_act n));
  li_act : forall v, In v (map fst (n_act n)) <-> In v (hidden n ++ n_out n)
}.

(* the five clauses that  a + b  and  a > b  establish in the same way *)
Lemma LInv_merge nv a b r :
  LInv nv a -> LInv nv b ->
  n_in r = union (n_in a) (n_in b) -> n_act r = amerge (n_act a) (n_act b) ->
  (forall v, In v (hidden r ++ n_out r) <-> In v (hidden a ++ n_out a) \/ In v (hidden b ++ n_out b)) ->
  NoDup (hidden r ++ n_out r) ->
  (forall x y, In (x, y) (n_con r) -> exists kx ky, level r x kx /\ level r y ky /\ kx < ky) ->
  n_nw r = length (n_con r) ->
  LInv nv r.
Proof.
  intros [a1 a2 a3 _ _ _ a7 a8] [b1 b2 b3 _ _ _ b7 b8] Ei Ea Hho ND Hc Hw.
  constructor; auto.
  - rewrite Ei. intros v Hv. apply union_In in Hv. destruct Hv; auto.
  - intros v Hv. apply Hho in Hv. destruct Hv; auto.
  - rewrite Ei. apply NoDup_union; auto.
  - rewrite Ea. apply amerge_NoDup; auto.
  - intro v. rewrite Ea, amerge_In, a8, b8. symmetry. apply Hho.
Qed.

Lemma zip_union_nth A B i L :
  nth_error A i = Some L \/ nth_error B i = Some L ->
  exists L', nth_error (zip_union A B) i = Some L' /\ incl L L'.
Proof.
  revert B i. induction A as [|x A IH]; intros [|y B] i H.
  - destruct H as [H|H]; destruct i; discriminate.
  - destruct H as [H|H]; [destruct i; discriminate|]. exists L. auto using incl_refl.
  - destruct H as [H|H]; [|destruct i; discriminate]. exists L. auto using incl_refl.
  - destruct i; simpl in *; [|apply IH; auto].
    exists (union x y). split; auto. intros v Hv. apply union_In.
    destruct H as [H|H]; inversion H; subst; auto.
Qed.
Lemma zip_union_In A B v :
  In v (concat (zip_union A B)) <-> In v (concat A) \/ In v (concat B).
Proof.
  revert B. induction A as [|x A IH]; intros B.
  - simpl. tauto.
  - destruct B as [|y B].
    + simpl. tauto.
    + simpl. rewrite !in_app_iff, union_In, IH. tauto.
Qed.
Lemma zip_union_NoDup A B :
  NoDup (concat A) -> NoDup (concat B) ->
  (forall v, In v (concat A) -> In v (concat B) -> False) ->
  NoDup (concat (zip_union A B)).
Proof.
  revert B. induction A as [|x A IH]; intros B HA HB HD.
  - simpl. auto.
  - destruct B as [|y B]; [exact HA|].
    simpl in *. apply NoDup_app_elim in HA. destruct HA as [Hx [HA HxA]].
    apply NoDup_app_elim in HB. destruct HB as [Hy [HB HyB]].
    apply NoDup_app_intro.
    + apply NoDup_union; auto.
    + apply IH; auto. intros v H1 H2. apply (HD v); apply in_app_iff; auto.
    + intros v H1 H2. apply union_In in H1. apply zip_union_In in H2.
      destruct H1 as [H1|H1], H2 as [H2|H2].
      * apply (HxA v); auto.
      * apply (HD v); apply in_app_iff; auto.
      * apply (HD v); apply in_app_iff; auto.
      * apply (HyB v); auto.
Qed.

Lemma hidden_add_plain a b v : In v (hidden (add_plain a b)) <-> In v (hidden a) \/ In v (hidden b).
Proof. apply zip_union_In. Qed.

Lemma add_plain_LInv nv a b :
  LInv nv a -> LInv nv b -> n_out a = [] -> n_out b = [] ->
  (forall v, In v (hidden a) -> In v (hidden b) -> False) ->
  LInv nv (add_plain a b).
Proof.
  intros Ia Ib Oa Ob HD.
  assert (La : forall v k, level a v k -> level (add_plain a b) v k).
  { intros v k. apply level_mono; auto.
    - intros x Hx. apply union_In; auto.
    - intros i L H. apply zip_union_nth. auto. }
  assert (Lb : forall v k, level b v k -> level (add_plain a b) v k).
  { intros v k. apply level_mono; auto.
    - intros x Hx. apply union_In; auto.
    - intros i L H. apply zip_union_nth. auto. }
  apply (LInv_merge nv a b); auto; simpl n_out; rewrite ?Oa, ?Ob, ?app_nil_r.
  - apply hidden_add_plain.
  - apply zip_union_NoDup; auto.
    + pose proof (li_ndh _ _ Ia) as H. rewrite Oa, app_nil_r in H. exact H.
    + pose proof (li_ndh _ _ Ib) as H. rewrite Ob, app_nil_r in H. exact H.
  - simpl. intros x y Hc. apply in_app_iff in Hc.
    destruct Hc as [Hc|Hc]; [apply (li_con _ _ Ia) in Hc|apply (li_con _ _ Ib) in Hc];
      destruct Hc as [ka [kb [H1 [H2 H3]]]]; exists ka, kb; auto.
  - simpl. rewrite app_length, (li_nw _ _ Ia), (li_nw _ _ Ib). reflexivity.
Qed.

Definition shift (la k : nat) : nat := match k with 0 => 0 | S i => S (la + i) end.

Lemma level_gt_l a b v k : n_out a = [] -> level a v k -> level (gt_plain a b) v k.
Proof.
  intro Ho. apply level_mono; auto.
  - rewrite gt_plain_in. intros x Hx. apply union_In; auto.
  - intros i L Hi. exists L. split; [|apply incl_refl]. rewrite gt_plain_hid.
    rewrite nth_error_app1; auto. eapply nth_error_lt; eauto.
Qed.
(* the layers of b come after those of a; the outputs of  a > b  are those of b *)
Lemma level_gt_r a b v k :
  n_out a = [] -> level b v k -> level (gt_plain a b) v (shift (length (n_hid a)) k).
Proof.
  intros Ho [[-> H]|[[i [L [-> [Hi Hv]]]]|[-> H]]]; simpl.
  - apply level_in. rewrite gt_plain_in. apply union_In; auto.
  - apply (level_hid _ _ L); auto. rewrite gt_plain_hid, nth_error_app2 by lia.
    replace (length (n_hid a) + i - length (n_hid a)) with i by lia. auto.
  - rewrite <- app_length, <- gt_plain_hid. apply level_out. rewrite gt_plain_out, Ho, union_nil_l. auto.
Qed.
Lemma gt_from_level a x : In x (gt_from a) -> exists k, level a x k /\ k <= length (n_hid a).
Proof.
  intro H. apply gt_from_In in H. destruct H as [[H|H] _].
  - exists 0. split; [apply level_in; auto|lia].
  - apply hidden_level in H. destruct H as [k [H1 H2]]. exists k. split; auto. lia.
Qed.
Lemma gt_to_level b y : In y (gt_to b) -> exists k, level b y k /\ 0 < k.
Proof.
  intro H. apply gt_to_sub in H. destruct H as [H|H].
  - apply hidden_level in H. destruct H as [k [H1 H2]]. exists k. split; auto. lia.
  - exists (S (length (n_hid b))). split; [apply level_out; auto|lia].
Qed.

Lemma gt_plain_LInv nv a b :
  LInv nv a -> LInv nv b -> n_out a = [] ->
  (forall v, In v (hidden a) -> In v (hidden b ++ n_out b) -> False) ->
  LInv nv (gt_plain a b).
Proof.
  intros Ia Ib Oa HD.
  assert (Eo : n_out (gt_plain a b) = n_out b) by (rewrite gt_plain_out, Oa; apply union_nil_l).
  apply (LInv_merge nv a b); auto using gt_plain_in, gt_plain_act;
    rewrite ?Eo, ?hidden_gt_plain, ?Oa, ?app_nil_r, <- ?app_assoc.
  - intro v. rewrite !in_app_iff. tauto.
  - apply NoDup_app_intro; auto.
    + pose proof (li_ndh _ _ Ia) as H. rewrite Oa, app_nil_r in H. exact H.
    + apply (li_ndh _ _ Ib).
  - rewrite gt_plain_con. intros x y Hc. rewrite !in_app_iff in Hc. destruct Hc as [Hc|[Hc|Hc]].
    + destruct (li_con _ _ Ia _ _ Hc) as [ka [kb [H1 [H2 H3]]]]. exists ka, kb.
      repeat split; auto; apply level_gt_l; auto.
    + destruct (li_con _ _ Ib _ _ Hc) as [ka [kb [H1 [H2 H3]]]].
      exists (shift (length (n_hid a)) ka), (shift (length (n_hid a)) kb).
      repeat split; try (apply level_gt_r; auto).
      destruct ka, kb; simpl; lia.
    + apply gt_new_In in Hc. destruct Hc as [Hx Hy].
      apply gt_from_level in Hx. destruct Hx as [kx [Hx Hk]].
      apply gt_to_level in Hy. destruct Hy as [ky [Hy Hk']].
      exists kx, (shift (length (n_hid a)) ky). repeat split.
      * apply level_gt_l; auto.
      * apply level_gt_r; auto.
      * destruct ky; simpl; lia.
  - rewrite gt_plain_nw, gt_plain_con, !app_length, (li_nw _ _ Ia), (li_nw _ _ Ib). lia.
Qed.
