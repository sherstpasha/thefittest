(* SelfConfProofs.v — the operator maps stay distributions; the fittest operator has maximal mean (C14). *)
From TF Require Import Base QSum SelfConf.
Open Scope Q_scope.

Lemma qsum_QSum : qsum = QSum.qsum. Proof. reflexivity. Qed.
Lemma clip_QSum : clip = QSum.clip. Proof. reflexivity. Qed.

Lemma selfc_raw_length K iters p w : length (selfc_raw K iters p w) = length p.
Proof. unfold selfc_raw. now rewrite map_length, upd_length. Qed.

Lemma clipped_range thr l : thr <= 1 -> Forall (fun x => thr <= x /\ x <= 1) (map (clip thr 1) l).
Proof. intros H. apply Forall_map, Forall_forall. intros x _. now apply clip_range. Qed.

Lemma clipped_pos thr l : 0 < thr -> thr <= 1 -> Forall (fun x => 0 < x) (map (clip thr 1) l).
Proof. intros H0 H1. eapply Forall_impl; [|exact (clipped_range thr l H1)]. cbv beta. intros; lra. Qed.

Lemma clipped_sum_pos thr l : 0 < thr -> thr <= 1 -> l <> [] -> 0 < qsum (map (clip thr 1) l).
Proof. intros H0 H1 Hne. apply qsum_pos_all; [destruct l; [congruence|discriminate]|now apply clipped_pos]. Qed.

Lemma selfc_raw_nonempty K iters p w : p <> [] -> selfc_raw K iters p w <> [].
Proof. intros H E. apply H, length_zero_iff_nil. now rewrite <- (selfc_raw_length K iters p w), E. Qed.

Theorem selfc_distribution K iters thr p w :
  0 < thr -> thr <= 1 -> p <> [] ->
  let q := selfc_new_proba K iters thr p w in
  length q = length p /\ qsum q == 1 /\ Forall (fun x => 0 < x) q.
Proof.
  intros Ht0 Ht1 Hne. cbv zeta. unfold selfc_new_proba.
  destruct (normalise_dist _ (clipped_sum_pos thr _ Ht0 Ht1 (selfc_raw_nonempty K iters p w Hne)))
    as (_ & Hs & _ & Hp).
  split; [rewrite !map_length; apply selfc_raw_length|]. split; [exact Hs|]. now apply Hp, clipped_pos.
Qed.

Lemma Qdiv_le_cross a b c d : 0 <= a -> a <= b -> 0 < c -> c <= d -> a / d <= b / c.
Proof.
  intros Ha Hab Hc Hcd. apply Qle_shift_div_r; [lra|].
  assert (Heq : b / c * d == b * (d / c)) by (field; lra). rewrite Heq.
  assert (1 <= d / c) by (apply Qle_shift_div_l; lra). nra.
Qed.

Theorem selfc_floor K iters thr p w :
  0 < thr -> thr <= 1 -> 0 <= K -> 0 < iters -> p <> [] ->
  qsum p == 1 -> Forall (fun x => 0 <= x) p ->
  let z := inject_Z (Z.of_nat (length p)) in
  Forall (fun x => thr / (1 + z * thr + K / iters) <= x) (selfc_new_proba K iters thr p w).
Proof.
  intros Ht0 Ht1 HK Hit Hne Hsum Hpos. cbv zeta. unfold selfc_new_proba.
  set (z := inject_Z (Z.of_nat (length p))).
  set (c := map (clip thr 1) (selfc_raw K iters p w)).
  assert (Hzpos : 0 < z) by (apply Qn_pos; destruct p; simpl; [congruence|lia]).
  assert (Hki : 0 <= K / iters) by (apply Qle_shift_div_l; lra).
  assert (Hkz : 0 <= K / (z * iters)) by (apply Qle_shift_div_l; nra).
  assert (HSlo : 0 < qsum c) by (apply clipped_sum_pos, selfc_raw_nonempty; auto).
  assert (HShi : qsum c <= 1 + z * thr + K / iters).
  { unfold c, selfc_raw. rewrite map_map. fold z.
    pose proof (qsum_clip_upd_le thr 1 (K / (z * iters)) (K / iters) ltac:(lra) Ht1 Hkz Hki p w Hpos) as H.
    fold z in H. rewrite <- qsum_QSum, <- clip_QSum in H. lra. }
  apply Forall_map. eapply Forall_impl; [|exact (clipped_range thr (selfc_raw K iters p w) Ht1)].
  cbv beta. intros y (Hy & _). apply Qdiv_le_cross; lra.
Qed.

Lemma r_value_sign j labels succ :
  0 <= r_value j labels succ /\ ((0 < uses j labels)%nat -> 0 < r_value j labels succ).
Proof.
  unfold r_value. destruct (Nat.eqb_spec (uses j labels) 0) as [E|E]; [split; [lra|lia]|].
  pose proof (Qn_nonneg (uses j labels)). pose proof (Qn_nonneg (successes j labels succ * successes j labels succ)).
  assert (0 < (inject_Z (Z.of_nat (successes j labels succ * successes j labels succ)) + 1) /
              (inject_Z (Z.of_nat (uses j labels)) + 1)) by (apply Qlt_shift_div_l; lra).
  split; [lra|auto].
Qed.

Theorem pdp_distribution thr z labels succ :
  0 < thr -> inject_Z (Z.of_nat z) * thr <= 1 ->
  (exists j, (j < z)%nat /\ In j labels) ->
  distribution thr z (pdp_new_proba thr z labels succ).
Proof.
  intros Ht Hzt (j & Hj & Hin). unfold distribution, pdp_new_proba.
  set (r := map (fun j => r_value j labels succ) (seq 0 z)).
  assert (Hrl : length r = z) by (unfold r; rewrite map_length, seq_length; auto).
  assert (Hr0 : Forall (fun x => 0 <= x) r).
  { apply Forall_map, Forall_forall. intros i _. apply (r_value_sign i). }
  assert (HS : 0 < qsum r).
  { apply qsum_pos; [exact Hr0|]. apply Exists_exists. exists (r_value j labels succ). split.
    - apply (in_map (fun i => r_value i labels succ)), in_seq. lia.
    - apply (r_value_sign j). unfold uses. destruct (filter (Nat.eqb j) labels) eqn:E; [|simpl; lia].
      exfalso. assert (In j (filter (Nat.eqb j) labels)) by (apply filter_In; split; auto; apply Nat.eqb_refl).
      rewrite E in H. contradiction. }
  set (c := (1 - inject_Z (Z.of_nat z) * thr) / qsum r).
  assert (Hc : 0 <= c) by (unfold c; apply Qle_shift_div_l; lra).
  split; [rewrite map_length; auto|]. split.
  - rewrite qsum_QSum, qsum_map_affine, <- qsum_QSum, Hrl. unfold c. field. lra.
  - apply Forall_map. eapply Forall_impl; [|exact Hr0]. cbv beta. intros y Hy. split; nra.
Qed.

Definition present (j : nat) (labels : list nat) (fit : list Q) : Prop := members j labels fit <> [].

(* what [fittest_from] holds after the operators below j: an operator of maximal mean among those
   present, with its mean; nothing while none was present *)
Definition best_ok (labels : list nat) (fit : list Q) (j : nat) (best : option (nat * Q)) : Prop :=
  match best with
  | Some (b, mb) => (b < j)%nat /\ present b labels fit /\ mb = mean (members b labels fit) /\
      forall i, (i < j)%nat -> present i labels fit -> mean (members i labels fit) <= mb
  | None => forall i, (i < j)%nat -> ~ present i labels fit
  end.

Lemma best_ok_step labels fit j best : best_ok labels fit j best ->
  best_ok labels fit (S j)
    (let ms := members j labels fit in
     match ms with
     | [] => best
     | _ => match best with
            | None => Some (j, mean ms)
            | Some (b, mb) => if Qltb mb (mean ms) then Some (j, mean ms) else best
            end
     end).
Proof.
  intros H. cbv zeta. destruct (members j labels fit) as [|m0 ms] eqn:Em.
  - assert (Hj : ~ present j labels fit) by (unfold present; congruence).
    destruct best as [[b mb]|]; cbn [best_ok] in *.
    + destruct H as (H1 & H2 & H3 & H4). repeat split; auto.
      intros i Hi Hp. destruct (Nat.eq_dec i j) as [->|Hne]; [contradiction|]. apply H4; [lia|auto].
    + intros i Hi. destruct (Nat.eq_dec i j) as [->|Hne]; [auto|apply H; lia].
  - assert (Hj : present j labels fit) by (unfold present; congruence). rewrite <- Em.
    destruct best as [[b mb]|]; cbn [best_ok] in *.
    + destruct H as (H1 & H2 & H3 & H4). destruct (Qltb mb (mean (members j labels fit))) eqn:E; cbn [best_ok].
      * apply Qltb_lt in E. repeat split; auto.
        intros i Hi Hp. destruct (Nat.eq_dec i j) as [->|Hne]; [lra|]. specialize (H4 i ltac:(lia) Hp). lra.
      * apply Qltb_ge in E. repeat split; auto.
        intros i Hi Hp. destruct (Nat.eq_dec i j) as [->|Hne]; [exact E|apply H4; [lia|auto]].
    + repeat split; auto.
      intros i Hi Hp. destruct (Nat.eq_dec i j) as [->|Hne]; [lra|]. exfalso. apply (H i); [lia|auto].
Qed.

Lemma fittest_from_spec z : forall j labels fit best,
  best_ok labels fit j best -> best_ok labels fit (j + z) (fittest_from z j labels fit best).
Proof.
  induction z as [|z IH]; intros j labels fit best H; cbn [fittest_from]; [now rewrite Nat.add_0_r|].
  rewrite <- Nat.add_succ_comm. apply IH, best_ok_step, H.
Qed.

Theorem find_fittest_spec z labels fit : (exists j, (j < z)%nat /\ present j labels fit) ->
  let w := find_fittest_operator z labels fit in
  (w < z)%nat /\ present w labels fit /\
  forall i, (i < z)%nat -> present i labels fit -> mean (members i labels fit) <= mean (members w labels fit).
Proof.
  intros (j & Hj & Hp). cbv zeta. unfold find_fittest_operator.
  assert (H : best_ok labels fit (0 + z) (fittest_from z 0 labels fit None))
    by (apply fittest_from_spec; intros i Hi; lia).
  destruct (fittest_from z 0 labels fit None) as [[w mw]|]; cbn [best_ok Nat.add] in H.
  - destruct H as (H1 & H2 & -> & H4). auto.
  - destruct (H j Hj Hp).
Qed.

