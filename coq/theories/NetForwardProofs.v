(* NetForwardProofs.v — C12, part 1: the reused node buffer leaks nothing
   (C12_batch_rows_independent), output shape, softmax normalisation.                          *)
From TF Require Import Base QSum Net NetOrder NetForward NetOrderProofs.
From Coq Require Import Permutation.
Local Open Scope nat_scope.

Section Buffer.
  Variable V : Type.
  Variable vzero : V.
  Notation rd := (rd V vzero).
  Notation write_all := (write_all V).

  Lemma rd_upd_same (b1 b2 : list V) i x :
    length b1 = length b2 -> rd (upd b1 i x) i = rd (upd b2 i x) i.
  Proof.
    unfold NetForward.rd. revert b2 i.
    induction b1 as [|h t IH]; intros [|h2 t2] [|i] H; simpl in *; try discriminate; auto.
  Qed.
  Lemma rd_upd_other (b : list V) i j x : i <> j -> rd (upd b i x) j = rd b j.
  Proof. intro H. unfold NetForward.rd. apply nth_upd_neq; auto. Qed.

  Lemma write_all_length (b : list V) ids vals : length (write_all b ids vals) = length b.
  Proof.
    revert b vals. induction ids as [|i ids IH]; intros b [|v vals]; simpl; auto.
    rewrite IH. apply upd_length.
  Qed.
  Lemma write_all_frame (b : list V) ids vals v :
    ~ In v ids -> rd (write_all b ids vals) v = rd b v.
  Proof.
    revert b vals. induction ids as [|i ids IH]; intros b [|x vals] H; simpl; auto.
    rewrite IH by (simpl in H; tauto). apply rd_upd_other. simpl in H. intro E. subst. tauto.
  Qed.
  Lemma write_all_In (b : list V) ids vals i x :
    NoDup ids -> (forall j, In j ids -> j < length b) -> In (i, x) (combine ids vals) ->
    rd (write_all b ids vals) i = x.
  Proof.
    revert b vals. induction ids as [|i0 ids IH]; intros b [|x0 vals] ND HR Hin; simpl in *; try tauto.
    inversion ND; subst. destruct Hin as [E|Hin].
    - inversion E; subst. rewrite write_all_frame by auto.
      unfold NetForward.rd. apply nth_upd_eq. apply HR. auto.
    - apply IH; auto. intros j Hj. rewrite upd_length. apply HR. auto.
  Qed.

  Definition agree (l : list nat) (b1 b2 : list V) : Prop := forall v, In v l -> rd b1 v = rd b2 v.

  (* the same values written at ids into two buffers that agree on l: they still agree on l, and
     on ids as well if there is a value for each *)
  Lemma write_all_agree l (b1 b2 : list V) ids vals :
    length b1 = length b2 -> agree l b1 b2 ->
    agree l (write_all b1 ids vals) (write_all b2 ids vals) /\
    (length vals = length ids -> agree (l ++ ids) (write_all b1 ids vals) (write_all b2 ids vals)).
  Proof.
    revert b1 b2 vals l. induction ids as [|i ids IH]; intros b1 b2 vals l HL HA; simpl.
    - rewrite app_nil_r. auto.
    - destruct vals as [|x vals]; [split; [exact HA|discriminate]|].
      destruct (IH (upd b1 i x) (upd b2 i x) vals (l ++ [i])) as [I1 I2].
      + rewrite !upd_length. auto.
      + intros u Hu. destruct (Nat.eq_dec i u) as [<-|E]; [apply rd_upd_same; auto|].
        rewrite !rd_upd_other by auto. apply HA. apply in_app_iff in Hu.
        destruct Hu as [Hu|[Hu|[]]]; [auto|congruence].
      + split; [intros v Hv; apply I1, in_or_app; auto|].
        intros HV v Hv. apply I2; [simpl in HV; lia|]. rewrite <- app_assoc. exact Hv.
  Qed.

  (* nodes = np.empty(...); nodes[inputs] = X.T[inputs]: what the buffer held is visible only
     off the inputs *)
  Lemma init_buf_length garbage inputs x : length (init_buf V vzero garbage inputs x) = length garbage.
  Proof. apply write_all_length. Qed.
  Lemma init_buf_agree g1 g2 inputs x : length g1 = length g2 ->
    agree inputs (init_buf V vzero g1 inputs x) (init_buf V vzero g2 inputs x).
  Proof. intros HL. apply (write_all_agree [] g1 g2 inputs); auto using map_length. intros u []. Qed.
End Buffer.

Section FwdProofs.
  Variables K V : Type.
  Variable kzero : K.
  Variable vzero : V.
  Variable vadd : V -> V -> V.
  Variable vscale : K -> V -> V.
  Variable act : nat -> V -> V.
  Variable smx : list V -> list V.
  Hypothesis smx_length : forall l, length (smx l) = length l.

  Notation rd := (rd V vzero).
  Notation write_all := (write_all V).
  Notation agree := (agree V vzero).
  Notation apply_act := (apply_act V vzero act smx).
  Notation forward_group := (forward_group K V kzero vzero vadd vscale act smx).
  Notation forward := (forward K V kzero vzero vadd vscale act smx).
  Notation init_buf := (init_buf V vzero).
  Notation forward_rows := (forward_rows K V kzero vzero vadd vscale act smx).
  Notation forward2d := (forward2d K V kzero vzero vadd vscale act smx).
  Notation net_forward := (net_forward K V kzero vzero vadd vscale act smx).

  Lemma apply_act_length (b : list V) cg : length (apply_act b cg) = length b.
  Proof. apply write_all_length. Qed.
  Lemma fold_apply_act_length acts (b : list V) : length (fold_left apply_act acts b) = length b.
  Proof.
    revert b. induction acts as [|cg r IH]; intro b; simpl; auto. rewrite IH. apply apply_act_length.
  Qed.
  Lemma forward_group_length w (b : list V) g : length (forward_group w b g) = length b.
  Proof. unfold NetForward.forward_group. rewrite fold_apply_act_length. apply write_all_length. Qed.
  Lemma forward_cons w (b : list V) g r : forward w b (g :: r) = forward w (forward_group w b g) r.
  Proof. reflexivity. Qed.
  Lemma forward_length w s : forall b : list V, length (forward w b s) = length b.
  Proof.
    induction s as [|g r IH]; intro b; auto.
    rewrite forward_cons, IH. apply forward_group_length.
  Qed.

  Lemma fold_apply_act_agree l acts : forall b1 b2 : list V,
    length b1 = length b2 -> (forall cg, In cg acts -> incl (snd cg) l) -> agree l b1 b2 ->
    agree l (fold_left apply_act acts b1) (fold_left apply_act acts b2).
  Proof.
    induction acts as [|cg r IH]; intros b1 b2 HL Hin HA; simpl; auto.
    apply IH.
    - rewrite !apply_act_length. auto.
    - intros cg' Hc. apply Hin. simpl; auto.
    - unfold NetForward.apply_act.
      rewrite (map_ext_in _ (NetForward.rd V vzero b2) (snd cg)) by (intros v Hv; apply HA, (Hin cg); simpl; auto).
      apply write_all_agree; auto.
  Qed.

  Lemma forward_group_agree l w (b1 b2 : list V) g :
    length b1 = length b2 -> incl (g_from g) l -> group_wf g -> agree l b1 b2 ->
    agree (l ++ g_to g) (forward_group w b1 g) (forward_group w b2 g).
  Proof.
    intros HL Hf [Hw Ha] HA. unfold NetForward.forward_group.
    rewrite (map_ext_in _ (NetForward.rd V vzero b2) (g_from g)) by (intros v Hv; apply HA, Hf, Hv).
    apply fold_apply_act_agree.
    - rewrite !write_all_length. auto.
    - intros cg Hc v Hv. apply in_or_app. right. apply (Ha cg Hc v Hv).
    - apply write_all_agree; auto. rewrite map_length. auto.
  Qed.

  Lemma forward_agree w s : forall l (b1 b2 : list V),
    length b1 = length b2 -> well_sched l s -> Forall group_wf s -> agree l b1 b2 ->
    agree (l ++ targets s) (forward w b1 s) (forward w b2 s).
  Proof.
    induction s as [|g r IH]; intros l b1 b2 HL HW HG HA.
    - simpl. rewrite app_nil_r. exact HA.
    - destruct HW as [W1 W2]. inversion HG; subst. rewrite !forward_cons, targets_cons, app_assoc.
      apply IH; auto.
      + rewrite !forward_group_length. auto.
      + apply forward_group_agree; auto.
  Qed.

  Lemma fold_apply_act_frame acts : forall (b : list V) v,
    (forall cg, In cg acts -> ~ In v (snd cg)) -> rd (fold_left apply_act acts b) v = rd b v.
  Proof.
    induction acts as [|cg r IH]; intros b v H; simpl; auto.
    rewrite IH by (intros cg' Hc; apply H; simpl; auto).
    apply write_all_frame. apply H. simpl; auto.
  Qed.
  Lemma forward_frame w s : Forall group_wf s -> forall (b : list V) v,
    ~ In v (targets s) -> rd (forward w b s) v = rd b v.
  Proof.
    induction 1 as [|g r [_ Hg] _ IH]; intros b v Hv; auto.
    rewrite forward_cons. rewrite targets_cons, in_app_iff in Hv. rewrite IH by tauto.
    unfold NetForward.forward_group. rewrite fold_apply_act_frame.
    - apply write_all_frame. tauto.
    - intros cg Hc Hin. apply Hv. left. apply (Hg cg Hc v Hin).
  Qed.

  Lemma forward_rows_all s inputs outputs :
    well_sched inputs s -> Forall group_wf s ->
    (forall v, In v inputs -> ~ In v (targets s)) ->
    (forall v, In v outputs -> In v inputs \/ In v (targets s)) ->
    forall ws (b b0 : list V),
      length b = length b0 -> agree inputs b b0 ->
      forward_rows ws b outputs s
      = map (fun w => map (NetForward.rd V vzero (forward w b0 s)) outputs) ws.
  Proof.
    intros HS HG Hdis Hout. induction ws as [|w0 ws IH]; intros b b0 HL HA; simpl; auto.
    f_equal.
    - apply map_ext_in. intros v Hv. apply (forward_agree w0 s inputs b b0); auto.
      apply in_or_app, Hout, Hv.
    - apply IH.
      + rewrite forward_length. auto.
      + intros v Hv. rewrite forward_frame; auto.
  Qed.

  (* Net.forward in terms of one pass per weight row over a buffer of our choice: whatever the
     real buffer held before (np.empty garbage, or the values left by the previous row or an
     earlier call) is overwritten before it is read *)
  Theorem net_forward_fresh n garbage garbage0 x ws :
    Layered n -> length garbage = length garbage0 ->
    net_forward (order_fuel n) n garbage x ws
    = option_map (fun s => map (fun w =>
        map (NetForward.rd V vzero (forward w (init_buf garbage0 (n_in n) x) s)) (n_out n)) ws)
        (get_order (order_fuel n) n).
  Proof.
    intros L HL. unfold NetForward.net_forward.
    destruct (get_order (order_fuel n) n) as [s|] eqn:E; auto. simpl. f_equal.
    destruct (order_terminates n L) as [s' [E' [W [P G]]]]. rewrite E in E'. inversion E'; subst s'.
    apply (forward_rows_all s (n_in n) (n_out n)); auto.
    - eapply Forall_impl; [|exact G]. intro g. apply group_of_wf.
    - intros v Hv Ht. apply (layered_disjoint n L v Hv). eapply Permutation_in; eauto.
    - intros v Hv. right. eapply Permutation_in; [symmetry; exact P|]. apply in_app_iff. auto.
    - rewrite !init_buf_length. auto.
    - apply init_buf_agree. auto.
  Qed.

  Theorem net_batch_rows_independent n garbage1 garbage2 x ws r w out :
    Layered n -> length garbage1 = length garbage2 ->
    net_forward (order_fuel n) n garbage1 x ws = Some out -> nth_error ws r = Some w ->
    exists row, nth_error out r = Some row /\
                net_forward (order_fuel n) n garbage2 x [w] = Some [row].
  Proof.
    intros L HL Ho Hr.
    rewrite (net_forward_fresh n garbage1 garbage2) in Ho by auto.
    rewrite (net_forward_fresh n garbage2 garbage2) by auto.
    destruct (get_order (order_fuel n) n) as [s|]; [|discriminate].
    inversion Ho; subst out.
    exists (map (NetForward.rd V vzero (forward w (init_buf garbage2 (n_in n) x) s)) (n_out n)).
    split; [|reflexivity]. exact (map_nth_error _ _ _ Hr).
  Qed.

  Lemma forward_rows_shape s outputs : forall ws (b : list V),
    length (forward_rows ws b outputs s) = length ws /\
    Forall (fun row => length row = length outputs) (forward_rows ws b outputs s).
  Proof.
    induction ws as [|w ws IH]; intro b; simpl.
    - split; auto.
    - destruct (IH (forward w b s)) as [H1 H2]. split; [lia|]. constructor; auto. apply map_length.
  Qed.
End FwdProofs.

(* softmax_numba over Q with an abstract exponential that is only assumed positive:
     exps = exp(X - max(X)); sum_ = sum(exps); if sum_ == 0: sum_ = 1; result = exps / sum_
   every entry is >= 0 and the entries of a non-empty row sum to 1.                              *)
Section Softmax.
  Open Scope Q_scope.
  Variable exp : Q -> Q.
  Hypothesis exp_pos : forall x, 0 < exp x.

  Definition qmaxl (l : list Q) : Q :=
    fold_right (fun a b => if Qle_bool a b then b else a) (hd 0 l) l.
  Definition qsum (l : list Q) : Q := fold_right Qplus 0 l.
  Definition softmax_q (l : list Q) : list Q :=
    let m := qmaxl l in
    let es := map (fun x => exp (x - m)) l in
    let s := qsum es in
    let s' := if Qeq_bool s 0 then 1 else s in
    map (fun e => e / s') es.

  (* the list sum of QSum.v, written as a fold *)
  Lemma qsum_QSum l : qsum l = QSum.qsum l.
  Proof. reflexivity. Qed.

  Theorem softmax_normalised l : l <> [] ->
    Forall (fun y => 0 <= y) (softmax_q l) /\ qsum (softmax_q l) == 1.
  Proof.
    intro Hne. unfold softmax_q. set (es := map (fun x => exp (x - qmaxl l)) l). cbv zeta.
    rewrite !qsum_QSum.
    assert (Hs : 0 < QSum.qsum es).
    { apply QSum.qsum_pos_all; [destruct l; [congruence|discriminate]|].
      apply Forall_map, Forall_forall. intros x _. apply exp_pos. }
    destruct (Qeq_bool (QSum.qsum es) 0) eqn:E; [apply Qeq_bool_iff in E; lra|].
    destruct (QSum.normalise_dist es Hs) as (_ & H1 & H0 & _). split; [apply H0|exact H1].
    apply Forall_map, Forall_forall. intros x _. apply Qlt_le_weak, exp_pos.
  Qed.
End Softmax.
