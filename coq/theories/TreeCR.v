(* TreeCR.v — common_region_two_trees (the index-pair walk with find_first_difference and
   find_end jumps) returns exactly the recursive common region, for ALL pairs of well-formed
   trees. *)
From Coq Require Import List Arith Bool Lia.
Import ListNotations.
From TF Require Import Tree TreeIdx TreeProofs.

Lemma cr_app_nil_l x : cr_app ([], []) x = x.
Proof. destruct x; reflexivity. Qed.
Lemma cr_app_nil_r x : cr_app x ([], []) = x.
Proof. destruct x; unfold cr_app; simpl. rewrite !app_nil_r. reflexivity. Qed.
Lemma cr_app_assoc x y z : cr_app (cr_app x y) z = cr_app x (cr_app y z).
Proof. unfold cr_app; simpl. rewrite !app_assoc. reflexivity. Qed.

Lemma ffd_prefix c x y l1 l2 : x <> y -> ffd (c ++ x :: l1) (c ++ y :: l2) = length c.
Proof.
  intros H. induction c as [|z c IH]; cbn [app ffd length].
  - rewrite (proj2 (Nat.eqb_neq x y) H). reflexivity.
  - rewrite Nat.eqb_refl, <- IH. destruct c; reflexivity.
Qed.
Lemma ffd_refl l : ffd l l = length l - 1.
Proof.
  induction l as [|x l IH]; [reflexivity|]. cbn [ffd length]. rewrite Nat.eqb_refl.
  destruct l; [reflexivity|]. rewrite IH. cbn [length]. lia.
Qed.

Section CR.
  Context {sym : Type}.
  Variable arity : sym -> nat.
  Notation tree := (tree sym).
  Notation nargs := (nargs arity).
  Notation wft := (wft arity).
  Notation wff := (wff arity).
  Notation cr_rec := (cr_rec arity).
  Notation cr_rec_f := (cr_rec_f arity).

  Lemma cr_rec_Node s1 (k1 : list tree) s2 k2 o1 o2 :
    cr_rec (Node s1 k1) (Node s2 k2) o1 o2 =
    if arity s1 =? arity s2
    then ((o1, o2) :: fst (cr_rec_f k1 k2 (S o1) (S o2)), snd (cr_rec_f k1 k2 (S o1) (S o2)))
    else ([(o1, o2)], [(o1, o2)]).
  Proof. reflexivity. Qed.
  Lemma cr_rec_f_cons (u1 : tree) r1 u2 r2 o1 o2 :
    cr_rec_f (u1 :: r1) (u2 :: r2) o1 o2
    = cr_app (cr_rec u1 u2 o1 o2) (cr_rec_f r1 r2 (o1 + size u1) (o2 + size u2)).
  Proof. reflexivity. Qed.

  Lemma cr_rec_f_app : forall (a1 a2 b1 b2 : list tree) o1 o2, length a1 = length a2 ->
    cr_rec_f (a1 ++ b1) (a2 ++ b2) o1 o2
    = cr_app (cr_rec_f a1 a2 o1 o2) (cr_rec_f b1 b2 (o1 + sizes a1) (o2 + sizes a2)).
  Proof.
    induction a1 as [|u1 a1 IH]; intros [|u2 a2] b1 b2 o1 o2 L; simpl in L; try discriminate.
    - rewrite sizes_nil, !Nat.add_0_r. symmetry. apply cr_app_nil_l.
    - simpl app. rewrite !cr_rec_f_cons, IH by lia. rewrite cr_app_assoc, !sizes_cons, !Nat.add_assoc.
      reflexivity.
  Qed.

  (* a node whose arity agrees: one step of the pre-order walk over the two work lists *)
  Lemma crf_unfold s1 (k1 r1 : list tree) s2 k2 r2 o1 o2 :
    arity s1 = arity s2 -> length k1 = length k2 ->
    cr_rec_f (Node s1 k1 :: r1) (Node s2 k2 :: r2) o1 o2
    = cr_app ([(o1, o2)], []) (cr_rec_f (k1 ++ r1) (k2 ++ r2) (S o1) (S o2)).
  Proof.
    intros A L. rewrite cr_rec_f_cons, cr_rec_Node, A, Nat.eqb_refl, (cr_rec_f_app k1 k2 r1 r2) by auto.
    rewrite !size_Node. replace (o1 + S (sizes k1)) with (S o1 + sizes k1) by lia.
    replace (o2 + S (sizes k2)) with (S o2 + sizes k2) by lia.
    unfold cr_app; simpl. reflexivity.
  Qed.

  Lemma cr_rec_f_singleton (t1 t2 : tree) o1 o2 : cr_rec_f [t1] [t2] o1 o2 = cr_rec t1 t2 o1 o2.
  Proof. rewrite cr_rec_f_cons. apply cr_app_nil_r. Qed.

  Lemma wft_size_ge2 (t : tree) : wft t = true -> 0 < arity (root t) -> 2 <= size t.
  Proof.
    intros W H. destruct (wft_children arity t W) as [L _]. rewrite <- sizes_children.
    destruct (children t) as [|u k]; simpl in L; [lia|]. rewrite sizes_cons. pose proof (size_pos u). lia.
  Qed.

  (* what one call of find_first_difference sees on the encodings of two aligned work lists:
     either no arity differs (the lists have the same shape: everything is common, no border), or
     the arities agree on a common prefix c and then the encodings of two sub-terms u1, u2 whose
     root arities differ follow: positions 0..length c are common, length c is a border, and
     behind u1 and u2 the remaining work lists are aligned again *)
  Lemma first_border (ts1 ts2 : list tree) :
    wff ts1 = true -> wff ts2 = true -> length ts1 = length ts2 ->
    (nargs (flats ts1) = nargs (flats ts2) /\
     forall o1 o2, cr_rec_f ts1 ts2 o1 o2 = (pair_range o1 o2 (sizes ts1), [])) \/
    exists (c : list nat) (u1 u2 : tree) (ts1' ts2' : list tree),
      wft u1 = true /\ wft u2 = true /\ arity (root u1) <> arity (root u2) /\
      wff ts1' = true /\ wff ts2' = true /\ length ts1' = length ts2' /\
      nargs (flats ts1) = c ++ nargs (flatten u1) ++ nargs (flats ts1') /\
      nargs (flats ts2) = c ++ nargs (flatten u2) ++ nargs (flats ts2') /\
      forall o1 o2, cr_rec_f ts1 ts2 o1 o2
        = cr_app (pair_range o1 o2 (S (length c)), [(o1 + length c, o2 + length c)])
                 (cr_rec_f ts1' ts2' (o1 + length c + size u1) (o2 + length c + size u2)).
  Proof.
    (* by induction on the number of nodes of ts1: the step goes from Node s k :: r to k ++ r *)
    pose proof (le_n (sizes ts1)) as HN. revert HN. generalize (sizes ts1) at 2. intros N. revert ts1 ts2.
    induction N as [|N IH]; intros [|[s1 k1] r1] [|[s2 k2] r2] HN W1 W2 L; try discriminate L;
      try (left; split; reflexivity).
    - rewrite sizes_cons, size_Node in HN. lia.
    - apply wff_cons in W1, W2. destruct W1 as [Wt1 Wr1]. destruct W2 as [Wt2 Wr2].
      destruct (Nat.eq_dec (arity s1) (arity s2)) as [EA|EA].
      + (* same arity: continue into the arguments, then the siblings *)
        apply wft_Node in Wt1, Wt2. destruct Wt1 as [L1 Wk1]. destruct Wt2 as [L2 Wk2].
        pose proof (fun o1 o2 => crf_unfold s1 k1 r1 s2 k2 r2 o1 o2 EA ltac:(congruence)) as CRF.
        rewrite !nargs_flats_Node_cons, EA.
        destruct (IH (k1 ++ r1) (k2 ++ r2))
          as [(E & HA) | (c & u1 & u2 & ts1' & ts2' & Wu1 & Wu2 & NA & W1' & W2' & L' & D1 & D2 & HB)].
        * rewrite sizes_app. rewrite sizes_cons, size_Node in HN. lia.
        * rewrite wff_app, Wk1, Wr1. reflexivity.
        * rewrite wff_app, Wk2, Wr2. reflexivity.
        * rewrite !app_length. simpl in L. lia.
        * left. split; [rewrite E; reflexivity|].
          intros o1 o2. rewrite CRF, HA, sizes_cons, size_Node, sizes_app. reflexivity.
        * right. exists (arity s2 :: c), u1, u2, ts1', ts2'. do 6 (split; [assumption|]).
          split; [rewrite D1; reflexivity|]. split; [rewrite D2; reflexivity|].
          intros o1 o2. rewrite CRF, HB. cbn [length]. rewrite <- !Nat.add_succ_comm. reflexivity.
      + (* the arities differ here: border; jump behind both sub-terms *)
        right. exists [], (Node s1 k1), (Node s2 k2), r1, r2. rewrite !flats_cons, !nargs_app.
        simpl in L. repeat split; auto.
        intros o1 o2. rewrite cr_rec_f_cons, cr_rec_Node, (proj2 (Nat.eqb_neq _ _) EA), !Nat.add_0_r.
        reflexivity.
  Qed.

  Lemma firstn_skipn_len {A} (l : list A) n : n <= length l -> length (firstn n l) = n.
  Proof. apply firstn_length_le. Qed.

  (* the loop, started at the beginning of two aligned work lists that reach the ends of the arrays *)
  Lemma cr2_loop_forest : forall fuel (ts1 ts2 : list tree) (pre1 pre2 : list nat),
    sizes ts1 < fuel -> wff ts1 = true -> wff ts2 = true -> length ts1 = length ts2 ->
    cr2_loop fuel (pre1 ++ nargs (flats ts1)) (pre2 ++ nargs (flats ts2)) (length pre1) (length pre2)
    = Some (cr_rec_f ts1 ts2 (length pre1) (length pre2)).
  Proof.
    induction fuel as [|f IH]; intros ts1 ts2 pre1 pre2 HF W1 W2 L; [lia|].
    destruct ts1 as [|t1 r1].
    - destruct ts2; [|discriminate]. simpl. rewrite !app_nil_r, !Nat.ltb_irrefl. simpl.
      rewrite !ltb_false by lia. reflexivity.
    - assert (S1 : length (nargs (flats (t1 :: r1))) = sizes (t1 :: r1)) by (rewrite nargs_length; apply flats_length).
      assert (S2 : length (nargs (flats ts2)) = sizes ts2) by (rewrite nargs_length; apply flats_length).
      assert (P1 : 1 <= sizes (t1 :: r1)) by (rewrite sizes_cons; pose proof (size_pos t1); lia).
      assert (P2 : 1 <= sizes ts2).
      { destruct ts2 as [|t2 r2]; [discriminate|]. rewrite sizes_cons. pose proof (size_pos t2). lia. }
      cbn [cr2_loop]. rewrite !app_length, S1, S2, !ltb_true by lia. cbn [andb]. rewrite !skipn_app_len.
      destruct (first_border (t1 :: r1) ts2 W1 W2 L)
        as [(E & HA) | (c & u1 & u2 & ts1' & ts2' & Wu1 & Wu2 & NA & W1' & W2' & L' & D1 & D2 & HB)].
      + rewrite E in S1 |- *. rewrite ffd_refl, S2, !ltb_false by lia. cbn [orb]. rewrite HA.
        replace (S (sizes ts2 - 1)) with (sizes (t1 :: r1)) by lia. reflexivity.
      + (* both arrays continue with c, then a whole sub-term, then the aligned rests *)
        assert (Ee : ffd (nargs (flats (t1 :: r1))) (nargs (flats ts2)) = length c)
          by (rewrite D1, D2; destruct u1, u2; apply ffd_prefix, NA).
        rewrite Ee, D1, D2. rewrite D1 in S1. rewrite D2 in S2.
        rewrite !app_length, !nargs_length, flatten_length, flats_length in S1, S2.
        assert (NL : (length pre1 + length c <? length pre1 + sizes (t1 :: r1) - 1)
                     || (length pre2 + length c <? length pre2 + sizes ts2 - 1) = true).
        { apply orb_true_iff. destruct (arity (root u1)) eqn:A1.
          - right. apply Nat.ltb_lt. pose proof (wft_size_ge2 u2 Wu2). lia.
          - left. apply Nat.ltb_lt. pose proof (wft_size_ge2 u1 Wu1). lia. }
        rewrite NL, !(app_assoc _ c), <- !app_length, !find_end_occ by assumption.
        rewrite !(app_assoc _ (nargs (flatten _))).
        assert (Q : forall (pre : list nat) u, length (pre ++ c) + size u = length ((pre ++ c) ++ nargs (flatten u)))
          by (intros; rewrite (app_length _ (nargs _)), nargs_length, flatten_length; reflexivity).
        pose proof (size_pos u1). rewrite !Q, (IH ts1' ts2') by (auto; lia).
        rewrite <- !Q, !app_length, HB. reflexivity.
  Qed.

  Theorem common_region_two_spec : forall t1 t2 : tree, wft t1 = true -> wft t2 = true ->
    common_region_two (nargs (flatten t1)) (nargs (flatten t2)) = Some (cr_rec t1 t2 0 0).
  Proof.
    intros t1 t2 W1 W2. unfold common_region_two.
    pose proof (cr2_loop_forest (S (length (nargs (flatten t1)))) [t1] [t2] [] []) as H.
    rewrite !flats_singleton, cr_rec_f_singleton, sizes_singleton, !wff_singleton in H.
    apply H; auto. rewrite nargs_length, flatten_length. lia.
  Qed.
End CR.
