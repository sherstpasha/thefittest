(* PoolsClosed.v — closure of one GA generation step over the operator POOLS (C06).
   For every triple of pool names (whatever tables they are looked up in, provided the selection and the
   crossover table pass the computable checks sel_table_ok / cx_table_ok and the attributes satisfy attrs_ok),
   every population of binary rows of one
   length, every weight / rank vector of the population's length and every outcome of the draws, the
   individual produced by  selection -> crossover -> flip mutation  (GeneticAlgorithm / SelfCGA, and
   PDPGA with its extra draw) is a binary row of the same length.
   The tables this is instantiated with are the GENERATED ones (coq/gen/GenPools.v, re-extracted from
   the source on every run): see props/C06.v. *)
From TF Require Import Base RandomPrims RandomPrimsProofs BinaryOps BinaryOpsProofs Pools C06Check.
From Coq Require Import String.
Open Scope string_scope.
Open Scope Q_scope.

Definition sel_ok (n_pop : nat) (tour quantity : nat) (sel : list Q -> list Q -> nat -> nat -> M (list Z)) : Prop :=
  forall fs fr ds r ds', valid_draws ds -> List.length fs = n_pop -> List.length fr = n_pop ->
    sel fs fr tour quantity ds = Some (r, ds') ->
    List.length r = quantity /\ Forall (fun v => (0 <= v < Z.of_nat n_pop)%Z) r /\ valid_draws ds'.

Definition cx_ok (quantity : nat) (cx : list row -> list Q -> list Q -> M row) : Prop :=
  forall ps f r ds c ds', valid_draws ds -> List.length ps = quantity -> List.length f = quantity ->
    List.length r = quantity -> cx ps f r ds = Some (c, ds') -> from_parents ps c.

(* only the tournament reads its size *)
Lemma selection_by_fun_ok f sel n_pop tour quantity :
  selection_by_fun f = Some sel -> (0 < n_pop)%nat ->
  (String.eqb f "tournament_selection" = true -> (0 < tour)%nat) -> sel_ok n_pop tour quantity sel.
Proof.
  unfold selection_by_fun. intros H Hn Ht fs fr ds r ds' Hv Hfs Hfr Hs.
  assert (Hw : forall w, List.length w = n_pop -> random_weighted_sample w quantity true ds = Some (r, ds') ->
            List.length r = quantity /\ Forall (fun v => (0 <= v < Z.of_nat n_pop)%Z) r /\ valid_draws ds').
  { intros w Hw Hs'. rewrite <- Hw. apply (random_weighted_sample_all valid_draw) with (2 := Hv) (3 := Hs').
    destruct w; [simpl in Hw; lia|discriminate]. }
  destruct (String.eqb f "proportional_selection"); [inversion H; subst sel; now apply (Hw fs)|].
  destruct (String.eqb f "rank_selection"); [inversion H; subst sel; now apply (Hw fr)|].
  destruct (String.eqb f "tournament_selection"); [|discriminate].
  inversion H; subst sel. cbn beta in Hs.
  destruct (tournament_selection_all _ _ _ _ _ _ Hv (Ht eq_refl) Hs) as (A & B & C). rewrite Hfs in B.
  repeat split; auto. eapply Forall_impl; [|exact B]. cbn beta. tauto.
Qed.

Definition min_parents (f : string) : nat :=
  if String.eqb f "one_point_crossover" then 2
  else if String.eqb f "two_point_crossover" then 2 else 1.

Lemma crossover_by_fun_ok f cx quantity :
  crossover_by_fun f = Some cx -> (min_parents f <= quantity)%nat -> cx_ok quantity cx.
Proof.
  unfold crossover_by_fun, min_parents. intros H Hq ps fi rk ds c ds' Hv Hps Hf Hr Hc.
  assert (Hq1 : (1 <= quantity)%nat).
  { destruct (String.eqb f "one_point_crossover"); [|destruct (String.eqb f "two_point_crossover")]; lia. }
  assert (Hw : forall w, List.length w = quantity ->
            bind (random_weighted_sample w (width ps) true) (fun ch => ret (from_choice ps ch)) ds = Some (c, ds') ->
            from_parents ps c).
  { intros w Hw Hc'. minv Hc'. apply (uniform_weighted_from_parents ps w ds l ds'); [|lia|exact E].
    destruct w; [simpl in Hw; lia|discriminate]. }
  destruct (String.eqb f "empty_crossover") eqn:E0.
  { inversion H; subst cx. cbn beta in Hc. destruct (empty_clone _ _ _ _ Hc) as (-> & _).
    apply String.eqb_eq in E0. subst f. cbn in Hq.
    split; [reflexivity|]. intros i Hi. exists 0%nat. split; [lia|reflexivity]. }
  destruct (String.eqb f "one_point_crossover") eqn:E1.
  { inversion H; subst cx. cbn beta in Hc.
    destruct (one_point_sound _ _ _ _ Hv Hc) as (cp & coin & _ & ->).
    apply one_point_child_from_parents. lia. }
  destruct (String.eqb f "two_point_crossover") eqn:E2.
  { inversion H; subst cx. cbn beta in Hc.
    destruct (two_point_sound _ _ _ _ Hv Hc) as (c0 & c1 & coin & _ & _ & ->).
    apply two_point_child_from_parents. lia. }
  destruct (String.eqb f "uniform_crossover").
  { inversion H; subst cx. apply (uniform_from_parents ps fi rk ds c ds' Hv); auto. lia. }
  destruct (String.eqb f "uniform_proportional_crossover"); [inversion H; subst cx; now apply (Hw fi)|].
  destruct (String.eqb f "uniform_rank_crossover"); [inversion H; subst cx; now apply (Hw rk)|].
  destruct (String.eqb f "uniform_tournament_crossover"); [|discriminate].
  inversion H; subst cx. apply (uniform_tour_sound ps fi rk ds c ds' Hv Hc).
Qed.

Lemma gather_length {A} (d : A) l idx : List.length (gather d l idx) = List.length idx.
Proof. unfold gather. apply map_length. Qed.

Lemma offspring_closed n pop sel cx quantity proba is_const fscale frank ds child ds' :
  pop_ok n pop -> (0 < quantity)%nat -> valid_draws ds ->
  List.length sel = quantity -> Forall (fun v => (0 <= v < Z.of_nat (List.length pop))%Z) sel ->
  cx_ok quantity cx ->
  bind (cx (gather [] pop sel) (gather 0 fscale sel) (gather 0 frank sel))
       (fun c => flip_mutation c (mutation_rate proba is_const (List.length c))) ds = Some (child, ds') ->
  binary child /\ List.length child = n.
Proof.
  intros Hp Hq Hv Hl Hr Hcx H. apply bind_inv in H as (c & ds1 & Hc & H).
  apply (flip_mutation_closed n c _ _ _ _) with (2 := H).
  apply (gathered_child_ok n pop sel c Hp); [destruct sel; [simpl in Hl; lia|discriminate]|exact Hr|].
  eapply Hcx; eauto; rewrite gather_length; auto.
Qed.

Theorem new_individ_closed (pdp : bool) sel tour quantity cx proba is_const pop fscale frank n ds child ds' :
  pop_ok n pop -> (0 < quantity)%nat -> valid_draws ds ->
  List.length fscale = List.length pop -> List.length frank = List.length pop ->
  sel_ok (List.length pop) tour quantity sel -> cx_ok quantity cx ->
  (if pdp then new_individ_pdp else new_individ) sel tour quantity cx proba is_const pop fscale frank ds = Some (child, ds') ->
  binary child /\ List.length child = n.
Proof.
  intros Hp Hq Hv Hfs Hfr Hsel Hcx H.
  assert (H' : exists l ds1, valid_draws ds1 /\ List.length l = quantity /\
            Forall (fun v => (0 <= v < Z.of_nat (List.length pop))%Z) l /\
            bind (cx (gather [] pop l) (gather 0 fscale l) (gather 0 frank l))
                 (fun c => flip_mutation c (mutation_rate proba is_const (List.length c))) ds1 = Some (child, ds')).
  { destruct pdp; apply bind_inv in H as (l & ds1 & E & H);
      destruct (Hsel _ _ _ _ _ Hv Hfs Hfr E) as (Hl & Hr & Hv1); [|now exists l, ds1].
    (* PDPGA: one more index is drawn before the crossover *)
    apply bind_inv in H as (i & ds2 & Ei & H). apply popI_inv in Ei as (_ & _ & Hv2); [now exists l, ds2|exact Hv1]. }
  destruct H' as (l & ds1 & Hv1 & Hl & Hr & H'). eapply offspring_closed; eauto.
Qed.

(* assumed of the two attributes that "_tour_size" / "_parents_num" entries read *)
Definition attrs_ok (a : attrs) : Prop := (0 < a_tour a)%Z /\ (2 <= a_parents a)%Z.

(* an entry whose function the binary GA can apply must promise at least the parents that function needs;
   a "_parents_num" entry relies on attrs_ok (GeneticAlgorithm requires parents_num >= 2 for one/two-point only,
   the uniform family works from 1 parent on) *)
Definition cx_entry_ok (e : entry) : bool :=
  match crossover_by_fun (e_fun e) with
  | None => true                                   (* GP operators: not applicable to the binary GA *)
  | Some _ =>
    match e_param e with
    | PInt z => (Z.of_nat (min_parents (e_fun e)) <=? z)%Z
    | PAttr s => String.eqb s "_parents_num"
    | PQ _ => false
    end
  end.
Definition cx_table_ok (t : list entry) : bool := forallb cx_entry_ok t.
Definition sel_entry_ok (e : entry) : bool :=
  match e_param e with
  | PInt z => String.eqb (e_fun e) "tournament_selection" && (0 <? z)%Z
              || negb (String.eqb (e_fun e) "tournament_selection")
  | PAttr s => String.eqb s "_tour_size"
  | PQ _ => false
  end.
Definition sel_table_ok (t : list entry) : bool := forallb sel_entry_ok t.

Lemma lookup_in n t e : lookup n t = Some e -> In e t.
Proof. unfold lookup. intros H. apply find_some in H. tauto. Qed.

Lemma table_entry_ok (chk : entry -> bool) n t e : forallb chk t = true -> lookup n t = Some e -> chk e = true.
Proof. intros Ht Hl. rewrite forallb_forall in Ht. eapply Ht, lookup_in, Hl. Qed.

Lemma param_nat_tour_ok a e tour : (0 < a_tour a)%Z -> sel_entry_ok e = true ->
  param_nat a (e_param e) = Some tour -> String.eqb (e_fun e) "tournament_selection" = true -> (0 < tour)%nat.
Proof.
  unfold sel_entry_ok, param_nat. intros Ha He Pt Et. rewrite Et in He.
  destruct (e_param e) as [z|q|s]; [| discriminate |].
  - cbn in He. rewrite orb_false_r in He. apply Z.ltb_lt in He. inversion Pt; subst. lia.
  - apply String.eqb_eq in He. subst s. cbn in Pt. inversion Pt; subst. lia.
Qed.

Lemma param_nat_parents_ok a e cx quantity : (2 <= a_parents a)%Z -> cx_entry_ok e = true ->
  crossover_by_fun (e_fun e) = Some cx -> param_nat a (e_param e) = Some quantity ->
  (min_parents (e_fun e) <= quantity)%nat /\ (0 < quantity)%nat.
Proof.
  unfold cx_entry_ok, param_nat. intros Ha He Fc Pq. rewrite Fc in He.
  assert (Hm : (1 <= min_parents (e_fun e) <= 2)%nat).
  { unfold min_parents. destruct (String.eqb _ "one_point_crossover"); [lia|].
    destruct (String.eqb _ "two_point_crossover"); lia. }
  destruct (e_param e) as [z|q|s]; [| discriminate |].
  - apply Z.leb_le in He. inversion Pq; subst. lia.
  - apply String.eqb_eq in He. subst s. cbn in Pq. inversion Pq; subst. lia.
Qed.

Theorem ga_new_individ_closed pdp sp cp mp a sn cn mn pop fscale frank n ds child ds' :
  sel_table_ok sp = true -> cx_table_ok cp = true -> attrs_ok a ->
  pop_ok n pop -> pop <> [] -> valid_draws ds ->
  List.length fscale = List.length pop -> List.length frank = List.length pop ->
  ga_new_individ pdp sp cp mp a sn cn mn pop fscale frank ds = Some (child, ds') ->
  binary child /\ List.length child = n.
Proof.
  intros Hst Hct (Hat & Hap) Hp Hne Hv Hfs Hfr H. unfold ga_new_individ in H.
  destruct (lookup sn sp) as [se|] eqn:Ls; [|discriminate].
  destruct (lookup cn cp) as [ce|] eqn:Lc; [|discriminate].
  destruct (lookup mn mp) as [me|] eqn:Lm; [|discriminate].
  destruct (selection_by_fun (e_fun se)) as [sel|] eqn:Fs; [|discriminate].
  destruct (param_nat a (e_param se)) as [tour|] eqn:Pt; [|discriminate].
  destruct (crossover_by_fun (e_fun ce)) as [cx|] eqn:Fc; [|discriminate].
  destruct (param_nat a (e_param ce)) as [quantity|] eqn:Pq; [|discriminate].
  destruct (param_q a (e_param me)) as [proba|] eqn:Pp; [|discriminate].
  destruct (String.eqb (e_fun me) "flip_mutation"); [|discriminate].
  destruct (param_nat_parents_ok a ce cx quantity Hap (table_entry_ok _ _ _ _ Hct Lc) Fc Pq) as (Hq1 & Hq0).
  apply (new_individ_closed pdp sel tour quantity cx proba (e_const me) pop fscale frank n ds child ds'); auto.
  - apply selection_by_fun_ok with (f := e_fun se); [exact Fs|destruct pop; [congruence|simpl; lia]|].
    exact (param_nat_tour_ok a se tour Hat (table_entry_ok _ _ _ _ Hst Ls) Pt).
  - exact (crossover_by_fun_ok _ _ _ Fc Hq1).
Qed.
