(* Proofs about Gray.v / Grid.v (property C10).  Every statement is for every width, every string and every box. *)
From TF Require Import Base Gray Grid.
From Coq Require Import Qround.
Open Scope Z_scope.

Lemma bits_to_gray_pairs bs : bits_to_gray bs = xor_pairs false bs.
Proof. destruct bs as [|[|] t]; reflexivity. Qed.

Lemma gray_to_bits_acc g : gray_to_bits g = xor_acc false g.
Proof. destruct g as [|[|] t]; reflexivity. Qed.

Lemma xorb_cancel p x : xorb p (xorb p x) = x.
Proof. destruct p, x; reflexivity. Qed.

Lemma xor_acc_pairs p bs : xor_acc p (xor_pairs p bs) = bs.
Proof. revert p; induction bs as [|x t IH]; intro p; simpl; auto. now rewrite xorb_cancel, IH. Qed.

Lemma xor_pairs_acc p g : xor_pairs p (xor_acc p g) = g.
Proof. revert p; induction g as [|x t IH]; intro p; simpl; auto. now rewrite xorb_cancel, IH. Qed.

Lemma xor_acc_length p g : length (xor_acc p g) = length g.
Proof. revert p; induction g; intro p; simpl; auto. Qed.
Lemma xor_pairs_length p g : length (xor_pairs p g) = length g.
Proof. revert p; induction g; intro p; simpl; auto. Qed.

Theorem gray_to_bits_to_gray bs : gray_to_bits (bits_to_gray bs) = bs.
Proof. rewrite gray_to_bits_acc, bits_to_gray_pairs. apply xor_acc_pairs. Qed.

Theorem bits_to_gray_to_bits g : bits_to_gray (gray_to_bits g) = g.
Proof. rewrite gray_to_bits_acc, bits_to_gray_pairs. apply xor_pairs_acc. Qed.

Lemma gray_to_bits_length g : length (gray_to_bits g) = length g.
Proof. rewrite gray_to_bits_acc. apply xor_acc_length. Qed.
Lemma bits_to_gray_length g : length (bits_to_gray g) = length g.
Proof. rewrite bits_to_gray_pairs. apply xor_pairs_length. Qed.

Lemma gray_to_bits_zeros n : gray_to_bits (repeat false n) = repeat false n.
Proof. rewrite gray_to_bits_acc. induction n; simpl; auto. now rewrite IHn. Qed.

Lemma pow2_pos n : 0 < 2 ^ Z.of_nat n.
Proof. apply Z.pow_pos_nonneg; lia. Qed.

Lemma pow2_S n : 2 ^ Z.of_nat (S n) = 2 * 2 ^ Z.of_nat n.
Proof. rewrite Nat2Z.inj_succ, Z.pow_succ_r; lia. Qed.

Lemma int_to_bits_length w k : length (int_to_bits w k) = w.
Proof. induction w; simpl; auto. Qed.

Lemma bits_to_int_range bs : 0 <= bits_to_int bs < 2 ^ Z.of_nat (length bs).
Proof.
  induction bs as [|b t IH]; cbn [length bits_to_int].
  - simpl. lia.
  - rewrite pow2_S. pose proof (pow2_pos (length t)). destruct b; simpl Z.b2z; lia.
Qed.

Lemma bits_to_int_to_bits_mod w k : bits_to_int (int_to_bits w k) = k mod 2 ^ Z.of_nat w.
Proof.
  induction w as [|w IH].
  - simpl. now rewrite Z.mod_1_r.
  - cbn [int_to_bits bits_to_int]. rewrite int_to_bits_length, IH.
    rewrite pow2_S. pose proof (pow2_pos w).
    rewrite (Z.mul_comm 2), Z.rem_mul_r by lia.
    rewrite Z.testbit_spec' by lia. lia.
Qed.

Theorem bits_to_int_to_bits w k : 0 <= k < 2 ^ Z.of_nat w -> bits_to_int (int_to_bits w k) = k.
Proof. intro H. rewrite bits_to_int_to_bits_mod. now apply Z.mod_small. Qed.

Lemma int_to_bits_mod w n k : (w <= n)%nat -> int_to_bits w (k mod 2 ^ Z.of_nat n) = int_to_bits w k.
Proof.
  induction w as [|w IH]; intro H; simpl; auto.
  rewrite IH by lia. f_equal. apply Z.mod_pow2_bits_low. lia.
Qed.

Lemma int_to_bits_cons b w k v : k = Z.b2z b * 2 ^ Z.of_nat w + v -> 0 <= v < 2 ^ Z.of_nat w ->
  int_to_bits (S w) k = b :: int_to_bits w v.
Proof.
  intros -> V. pose proof (pow2_pos w). cbn [int_to_bits]. f_equal.
  - apply Z.b2z_inj. rewrite Z.testbit_spec', Z.div_add_l, (Z.div_small v) by lia. now destruct b.
  - rewrite <- (int_to_bits_mod w w), Z.add_comm, Z.mod_add, int_to_bits_mod by lia. reflexivity.
Qed.

Theorem int_to_bits_to_int bs : int_to_bits (length bs) (bits_to_int bs) = bs.
Proof.
  induction bs as [|b t IH]; [reflexivity|]. cbn [length bits_to_int].
  now rewrite (int_to_bits_cons b _ _ _ eq_refl (bits_to_int_range t)), IH.
Qed.

Lemma bits_to_int_inj a b : length a = length b -> bits_to_int a = bits_to_int b -> a = b.
Proof.
  intros L E. rewrite <- (int_to_bits_to_int a), <- (int_to_bits_to_int b). now rewrite L, E.
Qed.

Lemma bits_to_int_zeros n : bits_to_int (repeat false n) = 0.
Proof. induction n; simpl; auto. Qed.

Lemma bits_to_int_ones n : bits_to_int (repeat true n) = pow2m1 n.
Proof.
  unfold pow2m1. induction n as [|n IH]; [reflexivity|].
  cbn [repeat bits_to_int]. rewrite repeat_length, IH, pow2_S. change (Z.b2z true) with 1. lia.
Qed.

Lemma int_to_bits_repeat b w k : k = bits_to_int (repeat b w) -> int_to_bits w k = repeat b w.
Proof. intros ->. pose proof (int_to_bits_to_int (repeat b w)) as H. now rewrite repeat_length in H. Qed.

Lemma hamming_refl a : hamming a a = O.
Proof. induction a as [|x t IH]; simpl; auto. rewrite Bool.eqb_reflx. exact IH. Qed.

Lemma hamming_xor_pairs p a b : length a = length b ->
  hamming (xor_pairs p a) (xor_pairs p b) = hamming (xor_pairs false a) (xor_pairs false b).
Proof.
  destruct a as [|x a], b as [|y b]; simpl; intro L; try discriminate; auto.
  f_equal. destruct p, x, y; reflexivity.
Qed.

Lemma xor_pairs_same b n : xor_pairs b (repeat b n) = repeat false n.
Proof. induction n; simpl; auto. now rewrite IHn, Bool.xorb_nilpotent. Qed.

Theorem gray_step w k : 0 <= k -> k + 1 < 2 ^ Z.of_nat w ->
  hamming (bits_to_gray (int_to_bits w k)) (bits_to_gray (int_to_bits w (k + 1))) = 1%nat.
Proof.
  rewrite !bits_to_gray_pairs. revert k. induction w as [|w IH]; intros k H0 H1; [simpl in H1; lia|].
  pose proof (pow2_pos w) as P. rewrite pow2_S in H1.
  destruct (Z.lt_trichotomy (k + 1) (2 ^ Z.of_nat w)) as [A|[A|A]].
  -
    rewrite (int_to_bits_cons false w k k), (int_to_bits_cons false w (k + 1) (k + 1)) by (cbn [Z.b2z]; lia).
    simpl. apply IH; lia.
  - (* carry into the top bit: 0 1..1 -> 1 0..0 *)
    rewrite (int_to_bits_cons false w k (pow2m1 w)), (int_to_bits_cons true w (k + 1) 0)
      by (unfold pow2m1; cbn [Z.b2z]; lia).
    rewrite (int_to_bits_repeat true), (int_to_bits_repeat false)
      by (now rewrite ?bits_to_int_ones, ?bits_to_int_zeros).
    destruct w; simpl; [reflexivity|]. now rewrite !xor_pairs_same, hamming_refl.
  -
    rewrite (int_to_bits_cons true w k (k - 2 ^ Z.of_nat w)),
      (int_to_bits_cons true w (k + 1) (k - 2 ^ Z.of_nat w + 1)) by (cbn [Z.b2z]; lia).
    simpl. rewrite hamming_xor_pairs by now rewrite !int_to_bits_length. apply IH; lia.
Qed.

Open Scope Q_scope.

Lemma Zlt_inject_succ a b : (a < b)%Z -> inject_Z a + 1 <= inject_Z b.
Proof. intro H. change 1 with (inject_Z 1). rewrite <- inject_Z_plus, <- Zle_Qle. lia. Qed.

Lemma inject_Z_pred a : inject_Z (a - 1) == inject_Z a - 1.
Proof. unfold Z.sub. rewrite inject_Z_plus. reflexivity. Qed.

Lemma Qrint_near q : Qabs (inject_Z (Qrint q) - q) <= 1 # 2.
Proof.
  pose proof (Qfloor_le q) as L. pose proof (Qlt_floor q) as U. rewrite inject_Z_plus in U.
  apply Qabs_Qle_condition. unfold Qrint. cbv zeta.
  destruct (Qcompare_spec (q - inject_Z (Qfloor q)) (1 # 2)) as [E|E|E]; [destruct (Z.even _)|..];
    rewrite ?inject_Z_plus; change (inject_Z 1) with 1 in *; split; lra.
Qed.

Lemma Qrint_comp q q' : q == q' -> Qrint q = Qrint q'.
Proof.
  intro E. unfold Qrint. rewrite (Qfloor_comp _ _ E).
  assert (E2 : q - inject_Z (Qfloor q') == q' - inject_Z (Qfloor q')) by (rewrite E; reflexivity).
  now rewrite (Qcompare_comp _ _ E2 (1#2) (1#2) (Qeq_refl _)).
Qed.

Lemma Qrint_inject k : Qrint (inject_Z k) = k.
Proof.
  unfold Qrint. rewrite Qfloor_Z.
  destruct (Qcompare_spec (inject_Z k - inject_Z k) (1 # 2)) as [E|E|E]; [exfalso; lra|reflexivity|exfalso; lra].
Qed.

Lemma inject_Z_le_inv a b : inject_Z a <= inject_Z b -> (a <= b)%Z.
Proof. intro H. rewrite Zle_Qle. exact H. Qed.

Lemma Qrint_bounds a b q : inject_Z a <= q -> q <= inject_Z b -> (a <= Qrint q <= b)%Z.
Proof.
  intros A B. pose proof (Qrint_near q) as N. apply Qabs_Qle_condition in N.
  split; apply Z.nlt_ge; intro G; apply Zlt_inject_succ in G; lra.
Qed.

Lemma Qrint_nearest q (j : Z) : Qabs (inject_Z (Qrint q) - q) <= Qabs (inject_Z j - q).
Proof.
  pose proof (Qrint_near q) as N.
  destruct (Z.lt_trichotomy j (Qrint q)) as [G|[->|G]]; [|apply Qle_refl|];
    apply Zlt_inject_succ in G; apply Qle_trans with (1 # 2); auto; apply Qabs_Qle_condition in N.
  - rewrite Qabs_neg by lra. lra.
  - rewrite Qabs_pos by lra. lra.
Qed.

Lemma pow2m1_pos w : (1 <= w)%nat -> 0 < inject_Z (pow2m1 w).
Proof.
  intro W. change 0 with (inject_Z 0). rewrite <- Zlt_Qlt. unfold pow2m1.
  destruct w as [|w]; [lia|]. rewrite pow2_S. pose proof (pow2_pos w). lia.
Qed.

Lemma vh_mul v : (1 <= vw v)%nat -> vh v * inject_Z (pow2m1 (vw v)) == vr v - vl v.
Proof. intro W. pose proof (pow2m1_pos _ W). unfold vh, h_from_bits. field. lra. Qed.

Lemma vh_pos v : good_var v -> 0 < vh v.
Proof. intros [L W]. unfold vh, h_from_bits. apply Qlt_shift_div_l; [apply pow2m1_pos, W|lra]. Qed.

Lemma vh_nonneg v : vl v <= vr v -> (1 <= vw v)%nat -> 0 <= vh v.
Proof. intros L W. unfold vh, h_from_bits. apply Qle_shift_div_l; [apply pow2m1_pos, W|lra]. Qed.

Lemma encode_length k w i : length (encode k w i) = w.
Proof. destruct k; simpl; rewrite ?bits_to_gray_length; apply int_to_bits_length. Qed.

Lemma decode_range k c : (0 <= decode k c <= pow2m1 (length c))%Z.
Proof.
  unfold pow2m1. destruct k; simpl.
  - pose proof (bits_to_int_range c). lia.
  - pose proof (bits_to_int_range (gray_to_bits c)) as H. rewrite gray_to_bits_length in H. lia.
Qed.

Lemma decode_encode k w i : (0 <= i <= pow2m1 w)%Z -> decode k (encode k w i) = i.
Proof.
  unfold pow2m1. intro H. destruct k; simpl; rewrite ?gray_to_bits_to_gray;
    apply bits_to_int_to_bits; lia.
Qed.

Lemma encode_decode k c : encode k (length c) (decode k c) = c.
Proof.
  destruct k; simpl.
  - apply int_to_bits_to_int.
  - rewrite <- (gray_to_bits_length c), int_to_bits_to_int. apply bits_to_gray_to_bits.
Qed.

Lemma decode_zeros k n : decode k (repeat false n) = 0%Z.
Proof. destruct k; simpl; rewrite ?gray_to_bits_zeros; apply bits_to_int_zeros. Qed.

Lemma transform1_grid_point k v c : transform1 k v c = grid_point v (decode k c).
Proof. reflexivity. Qed.

Lemma grid_point_in_box v i : vl v <= vr v -> (1 <= vw v)%nat -> in_range v i -> in_box v (grid_point v i).
Proof.
  intros L W [I0 I1]. unfold in_box, grid_point.
  pose proof (vh_nonneg v L W) as H. pose proof (vh_mul v W) as M.
  rewrite Zle_Qle in I0, I1. change (inject_Z 0) with 0 in I0.
  assert (0 <= vh v * inject_Z i) by (apply Qmult_le_0_compat; auto).
  assert (vh v * inject_Z i <= vh v * inject_Z (pow2m1 (vw v)))
    by (rewrite !(Qmult_comm (vh v)); apply Qmult_le_compat_r; auto).
  split; lra.
Qed.

Lemma grid_index_comp v x y : x == y -> grid_index v x = grid_index v y.
Proof. intro E. apply Qrint_comp. now rewrite E. Qed.

Lemma grid_index_point v i : good_var v -> grid_index v (grid_point v i) = i.
Proof.
  intro G. pose proof (vh_pos v G) as H. unfold grid_index, grid_point.
  rewrite <- (Qrint_inject i) at 2. apply Qrint_comp. field. lra.
Qed.

Lemma grid_index_range v x : good_var v -> in_box v x -> in_range v (grid_index v x).
Proof.
  intros G [B0 B1]. pose proof (vh_pos v G) as H. destruct G as [L W].
  pose proof (vh_mul v W) as M. unfold grid_index, in_range.
  apply Qrint_bounds.
  - change (inject_Z 0) with 0. apply Qle_shift_div_l; auto. lra.
  - apply Qle_shift_div_r; auto. lra.
Qed.

Lemma grid_point_dist v x j : good_var v ->
  Qabs (grid_point v j - x) == vh v * Qabs (inject_Z j - (x - vl v) / vh v).
Proof.
  intro G. pose proof (vh_pos v G) as H.
  setoid_replace (grid_point v j - x) with (vh v * (inject_Z j - (x - vl v) / vh v))
    by (unfold grid_point; field; lra).
  rewrite Qabs_Qmult, (Qabs_pos (vh v)); [reflexivity|lra].
Qed.

Lemma grid_snap_nearest v x : good_var v ->
  let y := grid_point v (grid_index v x) in
  Qabs (y - x) <= vh v / 2 /\ forall j : Z, Qabs (y - x) <= Qabs (grid_point v j - x).
Proof.
  intros G y. pose proof (vh_pos v G) as H. unfold y, grid_index. split.
  - setoid_replace (vh v / 2) with (vh v * (1 # 2)) by field.
    rewrite grid_point_dist by auto. apply Qmult_le_l; auto. apply Qrint_near.
  - intro j. rewrite !grid_point_dist by auto. apply Qmult_le_l; auto. apply Qrint_nearest.
Qed.

Lemma inverse1_transform1 k v c : good_var v -> length c = vw v ->
  inverse1 k v (transform1 k v c) = c.
Proof.
  intros G L. unfold inverse1. rewrite transform1_grid_point, grid_index_point by auto.
  rewrite <- L. apply encode_decode.
Qed.

Lemma transform1_inverse1 k v x : good_var v -> in_box v x ->
  transform1 k v (inverse1 k v x) = grid_point v (grid_index v x).
Proof.
  intros G B. unfold inverse1. rewrite transform1_grid_point, decode_encode; auto.
  now apply grid_index_range.
Qed.

(* For real x > 1 the least n with x <= 2^n is Z.log2_up (Qceiling x): an integer strictly below
   ceil x is strictly below x. *)
Lemma log2_up_ceiling x : 1 < x ->
  let n := Z.log2_up (Qceiling x) in
  (0 < n)%Z /\ x <= inject_Z (2 ^ n) /\ forall m, (0 <= m < n)%Z -> inject_Z (2 ^ m) < x.
Proof.
  intros X n. pose proof (Qle_ceiling x) as LC.
  assert (C : (1 < Qceiling x)%Z) by (rewrite Zlt_Qlt; eapply Qlt_le_trans; [exact X|exact LC]).
  destruct (Z.log2_up_spec _ C) as [S0 S1]. fold n in S0, S1. pose proof (Z.log2_up_pos _ C).
  split; [assumption|]. split.
  - apply Qle_trans with (inject_Z (Qceiling x)); auto. now rewrite <- Zle_Qle.
  - intros m Hm. pose proof (Qceiling_lt x) as CL. rewrite inject_Z_pred in CL.
    assert (P : (2 ^ m < Qceiling x)%Z)
      by (apply Z.le_lt_trans with (2 ^ Z.pred n)%Z; auto; apply Z.pow_le_mono_r; lia).
    apply Zlt_inject_succ in P. lra.
Qed.

Lemma Qdiv_le_swap d a b : 0 < a -> 0 < b -> d / a <= b -> d / b <= a.
Proof.
  intros A B H. apply Qle_shift_div_r; auto.
  setoid_replace d with (d / a * a) by (field; lra). rewrite (Qmult_comm a b).
  apply Qmult_le_compat_r; lra.
Qed.

Theorem bits_from_step l r h : l < r -> 0 < h ->
  let w := bits_from_h l r h in
  (1 <= w)%nat /\ h_from_bits l r w <= h /\
  (forall w', (1 <= w' < w)%nat -> h < h_from_bits l r w').
Proof.
  intros L H w. unfold bits_from_h in w. set (x := (r - l) / h + 1) in *.
  assert (X : 1 < x) by (assert (0 < (r - l) / h) by (apply Qlt_shift_div_l; lra); unfold x; lra).
  destruct (log2_up_ceiling x X) as (N & U & Lo).
  assert (Wz : Z.log2_up (Qceiling x) = Z.of_nat w) by (symmetry; apply Z2Nat.id; lia).
  rewrite Wz in *. split; [lia|]. unfold h_from_bits, x in *. split.
  - apply Qdiv_le_swap; auto using pow2m1_pos with zarith. unfold pow2m1. rewrite inject_Z_pred. lra.
  - intros w' W. specialize (Lo (Z.of_nat w') ltac:(lia)). apply Qnot_le_lt. intro Hc.
    apply Qdiv_le_swap in Hc; auto; [|apply pow2m1_pos; lia]. unfold pow2m1 in Hc. rewrite inject_Z_pred in Hc. lra.
Qed.

Lemma Forall2_Forall_l {A B} {P : A -> Prop} {R : A -> B -> Prop} {la lb} :
  Forall P la -> Forall2 R la lb -> Forall2 (fun a b => P a /\ R a b) la lb.
Proof. intros G F. induction F; inversion G; constructor; auto. Qed.

Lemma Forall2_map2_r {A B C} {R : A -> B -> Prop} (S : A -> C -> Prop) {f : A -> B -> C} {la lb} :
  Forall2 R la lb -> (forall a b, R a b -> S a (f a b)) -> Forall2 S la (map2 f la lb).
Proof. induction 1; simpl; constructor; auto. Qed.

Lemma map2_ext_Forall2 {A B C} {R : A -> B -> Prop} {f g : A -> B -> C} {la lb} :
  Forall2 R la lb -> (forall a b, R a b -> f a b = g a b) -> map2 f la lb = map2 g la lb.
Proof. induction 1; simpl; intro; f_equal; auto. Qed.

Lemma map2_id_Forall2 {A B} {R : A -> B -> Prop} {f : A -> B -> B} {la lb} :
  Forall2 R la lb -> (forall a b, R a b -> f a b = b) -> map2 f la lb = lb.
Proof. induction 1; simpl; intro; f_equal; auto. Qed.

Lemma map2_ext_r {A B C} {R : B -> B -> Prop} {f : A -> B -> C} la {lb lb'} :
  Forall2 R lb lb' -> (forall a b b', R b b' -> f a b = f a b') -> map2 f la lb = map2 f la lb'.
Proof. intros F H. revert la. induction F; intros [|a la]; simpl; f_equal; auto. Qed.

Lemma map2_map2_r {A B C D} (f : A -> C -> D) (g : A -> B -> C) la lb :
  map2 f la (map2 g la lb) = map2 (fun a b => f a (g a b)) la lb.
Proof. revert lb; induction la; intros [|b lb]; simpl; f_equal; auto. Qed.

Lemma map2_map_map {A B C D} (f : B -> C -> D) (g : A -> B) (h : A -> C) l :
  map2 f (map g l) (map h l) = map (fun a => f (g a) (h a)) l.
Proof. induction l; simpl; auto. now rewrite IHl. Qed.

Lemma map2_length {A B C} {R : A -> B -> Prop} (f : A -> B -> C) {la lb} :
  Forall2 R la lb -> length (map2 f la lb) = length la.
Proof. induction 1; simpl; auto. Qed.

Lemma split_widths_cons w t bs : t <> [] ->
  split_widths (w :: t) bs = firstn w bs :: split_widths t (skipn w bs).
Proof. destruct t; [congruence|reflexivity]. Qed.

Lemma split_widths_concat vs bss : Forall2 (fun v c => length c = vw v) vs bss ->
  split_widths (map vw vs) (concat bss) = bss.
Proof.
  induction 1 as [|v c vs bss L F IH]; [reflexivity|]. cbn [map concat].
  destruct vs as [|v2 vs].
  - inversion F. simpl. now rewrite app_nil_r.
  - rewrite split_widths_cons by discriminate.
    rewrite <- L, firstn_app_exact, skipn_app, skipn_all, Nat.sub_diag. cbn [app skipn]. now rewrite IH.
Qed.

Lemma transform_row_chunks k vs (bss : list (list bool)) : Forall2 (fun v c => length c = vw v) vs bss ->
  transform_row k vs (concat bss) = map2 (transform1 k) vs bss.
Proof. intro H. unfold transform_row. now rewrite split_widths_concat. Qed.

Lemma row_chunks vs (bs : list bool) : length bs = total_bits vs ->
  exists bss : list (list bool), Forall2 (fun v c => length c = vw v) vs bss /\ bs = concat bss.
Proof.
  unfold total_bits. revert bs. induction vs as [|v vs IH]; intros bs L; simpl in L.
  - exists []. destruct bs; [split; [constructor|reflexivity]|discriminate].
  - destruct (IH (skipn (vw v) bs)) as (bss & F & E); [rewrite skipn_length; lia|].
    exists (firstn (vw v) bs :: bss). split; [constructor; auto; rewrite firstn_length; lia|].
    simpl. rewrite <- E. symmetry. apply firstn_skipn.
Qed.

Lemma transform_row_length k vs bs : length bs = total_bits vs ->
  length (transform_row k vs bs) = length vs.
Proof.
  intro L. destruct (row_chunks vs bs L) as (bss & F & ->).
  rewrite transform_row_chunks by auto. apply (map2_length _ F).
Qed.

Theorem transform_point k vs ks : Forall2 in_range vs ks ->
  transform_row k vs (concat (map2 (fun v i => encode k (vw v) i) vs ks)) = map2 grid_point vs ks.
Proof.
  intro H. rewrite transform_row_chunks, map2_map2_r.
  - apply (map2_ext_Forall2 H). intros v i R. now rewrite transform1_grid_point, decode_encode.
  - apply (Forall2_map2_r _ H). intros. apply encode_length.
Qed.

Theorem every_string_is_code k vs bs : length bs = total_bits vs ->
  exists ks, Forall2 in_range vs ks /\ bs = concat (map2 (fun v i => encode k (vw v) i) vs ks).
Proof.
  intro L. destruct (row_chunks vs bs L) as (bss & F & ->).
  exists (map2 (fun _ => decode k) vs bss). split.
  - apply (Forall2_map2_r _ F). intros v c E. unfold in_range. rewrite <- E. apply decode_range.
  - f_equal. rewrite map2_map2_r. symmetry. apply (map2_id_Forall2 F).
    intros v c <-. apply encode_decode.
Qed.

Lemma repeat_total (b : bool) vs : repeat b (total_bits vs) = concat (map (fun v => repeat b (vw v)) vs).
Proof.
  unfold total_bits. induction vs as [|v t IH]; simpl; auto.
  now rewrite repeat_app, IH.
Qed.

Theorem transform_row_repeat k b (e : var -> Q) vs :
  Forall (fun v => transform1 k v (repeat b (vw v)) == e v) vs ->
  Forall2 Qeq (transform_row k vs (repeat b (total_bits vs))) (map e vs).
Proof.
  intro H. rewrite repeat_total, transform_row_chunks.
  - induction H; simpl; constructor; auto.
  - clear H. induction vs; simpl; constructor; auto. apply repeat_length.
Qed.

Theorem transform_in_box k vs bs : Forall (fun v => vl v <= vr v /\ (1 <= vw v)%nat) vs ->
  length bs = total_bits vs -> Forall2 in_box vs (transform_row k vs bs).
Proof.
  intros G L. destruct (row_chunks vs bs L) as (bss & F & ->).
  rewrite transform_row_chunks by auto. apply (Forall2_map2_r _ (Forall2_Forall_l G F)).
  intros v c [[A B] E].
  rewrite transform1_grid_point. apply grid_point_in_box; auto.
  unfold in_range. rewrite <- E. apply decode_range.
Qed.

Lemma inverse_row_length k vs xs : length xs = length vs ->
  length (inverse_row k vs xs) = total_bits vs.
Proof.
  unfold inverse_row, total_bits. revert xs.
  induction vs as [|v t IH]; intros [|x xs] L; simpl in *; try discriminate; auto.
  rewrite app_length, IH by lia. unfold inverse1. now rewrite encode_length.
Qed.

Theorem transform_inverse_snap k vs xs : good vs -> Forall2 in_box vs xs ->
  transform_row k vs (inverse_row k vs xs) = map2 (fun v x => grid_point v (grid_index v x)) vs xs.
Proof.
  intros G B. unfold inverse_row. rewrite transform_row_chunks, map2_map2_r.
  - apply (map2_ext_Forall2 (Forall2_Forall_l G B)). intros v x [Gv Bx]. now apply transform1_inverse1.
  - apply (Forall2_map2_r _ B). intros. apply encode_length.
Qed.

Theorem inverse_nearest k vs xs : good vs -> Forall2 in_box vs xs ->
  Forall2 (fun v p => Qabs (snd p - fst p) <= vh v / 2 /\
                      forall j : Z, Qabs (snd p - fst p) <= Qabs (grid_point v j - fst p))
          vs (combine xs (transform_row k vs (inverse_row k vs xs))).
Proof.
  intros G B. rewrite transform_inverse_snap by auto.
  pose proof (Forall2_Forall_l G B) as GB. clear G B.
  induction GB as [|v x vs xs [Gv _] _ IH]; simpl; constructor; auto.
  now apply grid_snap_nearest.
Qed.

Theorem roundtrip_grid k vs ks : good vs -> Forall2 in_range vs ks ->
  transform_row k vs (inverse_row k vs (map2 grid_point vs ks)) = map2 grid_point vs ks.
Proof.
  intros G R. pose proof (Forall2_Forall_l G R) as GR.
  rewrite transform_inverse_snap, map2_map2_r; auto.
  - apply (map2_ext_Forall2 GR). intros v i [Gv _]. now rewrite grid_index_point.
  - apply (Forall2_map2_r _ GR). intros v i [[A W] Ri]. apply grid_point_in_box; auto. lra.
Qed.

Theorem roundtrip_bits k vs bs : good vs -> length bs = total_bits vs ->
  inverse_row k vs (transform_row k vs bs) = bs.
Proof.
  intros G L. destruct (row_chunks vs bs L) as (bss & F & ->).
  rewrite transform_row_chunks by auto. unfold inverse_row. f_equal.
  rewrite map2_map2_r. apply (map2_id_Forall2 (Forall2_Forall_l G F)).
  intros v c [Gv E]. now apply inverse1_transform1.
Qed.

(* injective because it has a left inverse that respects == *)
Theorem transform_injective k vs bs1 bs2 : good vs ->
  length bs1 = total_bits vs -> length bs2 = total_bits vs ->
  Forall2 Qeq (transform_row k vs bs1) (transform_row k vs bs2) -> bs1 = bs2.
Proof.
  intros G L1 L2 E.
  rewrite <- (roundtrip_bits k vs bs1), <- (roundtrip_bits k vs bs2) by auto.
  unfold inverse_row. f_equal. apply (map2_ext_r _ E).
  intros v x y Exy. unfold inverse1. f_equal. now apply grid_index_comp.
Qed.

Lemma hstack_nil_rows n : hstack [] n = repeat [] n.
Proof. reflexivity. Qed.

Lemma float_to_bit_rows k v col : float_to_bit true k v col = map (inverse1 k v) col.
Proof. unfold float_to_bit, int_to_bit_batch, inverse1. destruct k; simpl; now rewrite !map_map. Qed.

(* the repaired column-wise code equals the row-wise specification *)
Theorem inverse_transform_rows k vs pop : Forall (fun r => length r = length vs) pop ->
  inverse_transform k vs pop = map (inverse_row k vs) pop.
Proof.
  unfold inverse_transform, inverse_transform_gen. revert pop.
  induction vs as [|v t IH]; intros pop H.
  - clear H. simpl. induction pop as [|r pop IHp]; simpl; [|rewrite IHp]; reflexivity.
  - cbn [length columns map2 hstack]. rewrite <- (map_length (@tl Q) pop), IH.
    + rewrite float_to_bit_rows, !map_map, map2_map_map. apply map_ext_Forall.
      eapply Forall_impl; [|exact H]. intros [|x r] Hr; [discriminate|reflexivity].
    + apply Forall_map. eapply Forall_impl; [|exact H].
      intros [|x r] Hr; [discriminate|now injection Hr].
Qed.

Theorem roundtrip_bits_batch k vs pop : good vs -> Forall (fun b => length b = total_bits vs) pop ->
  inverse_transform k vs (transform k vs pop) = pop.
Proof.
  intros G H. unfold transform. rewrite inverse_transform_rows.
  - rewrite map_map. induction H; simpl; auto. rewrite roundtrip_bits by auto. now f_equal.
  - apply Forall_map. eapply Forall_impl; [|exact H]. intros. now apply transform_row_length.
Qed.

Theorem roundtrip_grid_batch k vs kss : good vs -> Forall (Forall2 in_range vs) kss ->
  transform k vs (inverse_transform k vs (map (map2 grid_point vs) kss)) = map (map2 grid_point vs) kss.
Proof.
  intros G H. rewrite inverse_transform_rows.
  - unfold transform. rewrite !map_map. induction H; simpl; auto.
    rewrite roundtrip_grid by auto. now f_equal.
  - apply Forall_map. eapply Forall_impl; [|exact H]. apply map2_length.
Qed.

(* the enumeration used by the exhaustive correspondence really is exhaustive *)
Lemma all_strings_complete (bs : list bool) : In bs (all_strings (length bs)).
Proof.
  induction bs as [|b t IH]; simpl; auto.
  apply in_or_app. destruct b; [right|left]; now apply in_map.
Qed.
Lemma all_strings_length n : length (all_strings n) = Nat.pow 2 n.
Proof. induction n; simpl; auto. rewrite app_length, !map_length, IHn. lia. Qed.
