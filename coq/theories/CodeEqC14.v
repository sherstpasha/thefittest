(* CodeEqC14.v — SelfCGA._get_new_proba (inherited by SelfCGP), translated on every run with the probability dict modelled by
   its value list in key order (gen/GenCode.v: py_SelfCGA_get_new_proba), IS the model's update rule selfc_new_proba
   (SelfConf.v): the winner's entry is raised by K/iters, every entry lowered by K/(z*iters), clipped to [threshold, 1] and
   renormalised.  Entries are related by == (the source multiplies integers before converting, the model converts first). *)
From TF Require Import Py PyLemmas QSum SelfConf SelfConfProofs CodeEqAdapt.
From TFG Require Import GenCode.
Open Scope Q_scope.

Lemma Forall2_map_ext (f g : Q -> Q) : (forall x y, x == y -> f x == g y) ->
  forall l l', Forall2 Qeq l l' -> Forall2 Qeq (map f l) (map g l').
Proof. intros H l l' F; induction F; cbn [map]; constructor; auto. Qed.

(* numpy's clip(lo, hi) = min(max(x, lo), hi) is the model's clip when lo <= hi *)
Lemma clip_code lo hi x y : lo <= hi -> x == y ->
  (let m := if Qltb x lo then lo else x in if Qltb hi m then hi else m) == clip lo hi y.
Proof.
  intros Hlh Hxy. cbv zeta. unfold clip. rewrite (Qltb_comp x y Hxy lo lo (Qeq_refl lo)).
  destruct (Qltb y lo).
  - now rewrite (proj2 (Qltb_ge hi lo) Hlh).
  - rewrite (Qltb_comp hi hi (Qeq_refl hi) x y Hxy). destruct (Qltb hi y); [reflexivity|exact Hxy].
Qed.

Theorem code_selfc_new_proba (K : Q) (iters : Z) (thr : Q) (p : list Q) (w : Z) : (0 <= w)%Z -> thr <= 1 ->
  fst (py_SelfCGA_get_new_proba K iters p w thr) = upd p (Z.to_nat w) (nth (Z.to_nat w) p 0 + K / ZtoQ iters) /\
  Forall2 Qeq (snd (py_SelfCGA_get_new_proba K iters p w thr)) (selfc_new_proba K (ZtoQ iters) thr p (Z.to_nat w)).
Proof.
  intros Hw Hthr. unfold py_SelfCGA_get_new_proba. cbv zeta. cbn [fst snd].
  rewrite (setA_nonneg _ _ _ Hw), (getQ_nonneg _ _ Hw). split; [reflexivity|].
  unfold selfc_new_proba, selfc_raw. cbv zeta.
  set (p1 := upd p (Z.to_nat w) (nth (Z.to_nat w) p 0 + K / ZtoQ iters)).
  assert (Hraw : Forall2 Qeq (vsubs p1 (K / ZtoQ (zlen p1 * iters)))
                   (map (fun x => x - K / (inject_Z (Z.of_nat (length p)) * ZtoQ iters)) p1)).
  { unfold vsubs. apply Forall2_map_ext; [|apply Forall2_Qeq_refl]. intros x y Hxy.
    unfold zlen, p1. rewrite upd_length. unfold ZtoQ. rewrite inject_Z_mult, Hxy. reflexivity. }
  assert (Hclip : Forall2 Qeq (vclip thr (ZtoQ 1) (vsubs p1 (K / ZtoQ (zlen p1 * iters))))
                    (map (clip thr 1) (map (fun x => x - K / (inject_Z (Z.of_nat (length p)) * ZtoQ iters)) p1))).
  { unfold vclip. apply Forall2_map_ext; [|exact Hraw]. intros x y Hxy. now apply clip_code. }
  unfold vdivs. apply Forall2_map_ext; [|exact Hclip].
  intros x y Hxy. rewrite sumQ_qsum, (qsum_compat _ _ Hclip), Hxy. reflexivity.
Qed.

Lemma Forall2_length_Q (l l' : list Q) : Forall2 Qeq l l' -> length l = length l'.
Proof. intro F; induction F; cbn; congruence. Qed.
Lemma Forall2_pos (l l' : list Q) : Forall2 Qeq l l' -> Forall (fun x => 0 < x) l' -> Forall (fun x => 0 < x) l.
Proof.
  intro F; induction F as [|a b l l' Hab _ IH]; intro H; [constructor|].
  inversion H as [|? ? Hb Hl]; subst. constructor; [now rewrite Hab|now apply IH].
Qed.

Theorem src_selfc_distribution (K : Q) (iters : Z) (thr : Q) (p : list Q) (w : Z) :
  (0 <= w)%Z -> 0 < thr -> thr <= 1 -> p <> [] ->
  let q := snd (py_SelfCGA_get_new_proba K iters p w thr) in
  length q = length p /\ qsum q == 1 /\ Forall (fun x => 0 < x) q.
Proof.
  intros Hw H0 H1 Hp q.
  destruct (code_selfc_new_proba K iters thr p w Hw H1) as [_ F]. fold q in F.
  destruct (selfc_distribution K (ZtoQ iters) thr p (Z.to_nat w) H0 H1 Hp) as (Hl & Hs & Hpos).
  repeat split.
  - rewrite (Forall2_length_Q _ _ F). exact Hl.
  - rewrite (qsum_compat _ _ F). exact Hs.
  - exact (Forall2_pos _ _ F Hpos).
Qed.
