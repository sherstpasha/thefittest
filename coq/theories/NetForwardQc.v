(* NetForwardQc.v — C12: the boolean premises the correspondence evaluates (C12Check.v) decide
   Layered and sm_same; the net and the normalising function of DESIGN §7 item 14 (softmax per
   schedule group on hand-built nets whose softmax nodes have different source sets) at the
   instance K = V = Qc; the bounded family of MLP requests on which the premises are evaluated.  *)
From TF Require Import Base Net NetAlgebra NetOrder NetProofs NetProofs2 NetOrderProofs
     NetForwardProofs2 NetMLPProofs C12Check.
From Coq Require Import Permutation Qcanon.
Local Open Scope nat_scope.

(* a normalising vector function on Qc standing in for softmax: v_i / sum(v) *)
Definition norm_qc (l : list Qc) : list Qc :=
  let s := fold_right Qcplus (Q2Qc 0) l in map (fun v => Qcdiv v s) l.

(* item 14: inputs {0,1}, outputs {2,3} both with code 5, rows 0->2 and 1->3 *)
Definition net14 : net := mkNet [0; 1] [] [2; 3] [(0, 2); (1, 3)] 2 [(2, 5); (3, 5)].

Theorem sm_same_b_iff n :
  NoDup (map fst (n_act n)) -> (sm_same_b n = true <-> sm_same n).
Proof.
  intro ND. unfold sm_same_b, sm_same.
  assert (In5 : forall k, In k (map fst (filter (fun p => snd p =? 5) (n_act n))) <->
                          alookup k (n_act n) = Some 5).
  { intro k. rewrite <- (sm_nodes_In n k ND). symmetry. apply (sort_by_In Nat.leb). }
  rewrite forallb_forall. split.
  - intros H u v Hu Hv. apply In5 in Hu. apply In5 in Hv. specialize (H u Hu).
    rewrite forallb_forall in H. apply natlist_eqb_eq, H, Hv.
  - intros H u Hu. apply forallb_forall. intros v Hv. apply natlist_eqb_eq. apply H; apply In5; auto.
Qed.
Theorem chk_premises_iff n : chk_premises n = true <-> Layered n /\ sm_same n.
Proof.
  unfold chk_premises. rewrite andb_true_iff, layered_b_iff. split; intros [L S]; split; auto;
    apply (sm_same_b_iff n (l_keys n L)); auto.
Qed.

Lemma srcs_of_NoDup con t : NoDup con -> NoDup (srcs_of con t).
Proof.
  unfold srcs_of. induction con as [|[a b] r IH]; simpl; intro ND. constructor.
  inversion ND; subst. destruct (b =? t) eqn:E; simpl; auto.
  apply Nat.eqb_eq in E. subst b. constructor; auto.
  fold (srcs_of r t). rewrite srcs_of_In. auto.
Qed.

(* the boolean premises on the nets of the MLP builder for a bounded family of requests: hidden
   tuples of <= 3 layers with sizes 1..3, n_inputs 1..4, n_outputs 1..3, offset on/off, softmax
   outputs (true by C12_mlp_premises and chk_premises_iff: props/C12.v) *)
Definition mlp_premises_sweep : bool :=
  forallb (fun hs =>
    forallb (fun ni =>
      forallb (fun no =>
        forallb (fun offset =>
          match define_net true ni no hs 1 offset 5 with
          | Some r => chk_premises r
          | None => false
          end) [true; false]) [1; 2; 3]) [1; 2; 3; 4]) NetMLPProofs.tuples_upto3.
