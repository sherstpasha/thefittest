(* TreeCRk.v — the k-tree walk  common_region(trees)  (model: TreeIdx.common_region_k / crk_loop)
   returns exactly the recursive common region of the k trees, for ALL k >= 1 and all tuples of
   well-formed trees.

   Recursive definition ([crk_rec]): the tuple of roots is a common column; when ALL k root
   arities agree the region continues into the arguments (i-th argument of every tree, for every
   i), otherwise the column is a border and nothing below it belongs to the region.

   The proof follows the walk with a work list W of k-tuples of sub-terms still to be visited
   ([tagsW]): array j holds, from the current position on, the encodings of the j-th components
   of the tuples of W one after the other ([stW]). *)
From Coq Require Import List Arith Bool Lia.
Import ListNotations.
From TF Require Import Tree TreeIdx TreeProofs.

Section Spec.
  Context {sym : Type}.
  Variable arity : sym -> nat.
  Notation tree := (tree sym).

  Definition root_arities (ts : list tree) : list nat := map (fun t => arity (root t)) ts.
  (* the i-th argument of every tree of a tuple *)
  Definition kid_col (i : nat) (ts : list tree) : list tree := map (fun t => nth i (children t) t) ts.
  (* positions behind the trees of a tuple that starts at positions os *)
  Definition adv (os : list nat) (ts : list tree) : list nat :=
    map (fun ok => fst ok + size (snd ok)) (combine os ts).

  (* a scanned column (one position per tree) tagged with "is a border" *)
  Definition tcol : Type := (list nat * bool)%type.
  Fixpoint crk_kids (rec : list tree -> list nat -> list tcol) (n i : nat) (ts : list tree) (os : list nat)
    : list tcol :=
    match n with
    | 0 => []
    | S n' => rec (kid_col i ts) os ++ crk_kids rec n' (S i) ts (adv os (kid_col i ts))
    end.
  (* THE recursive common region of the k trees ts whose roots are at prefix positions os.
     Fuel bounds the depth of the recursion: any fuel > depth of the first tree gives the same
     result ([crk_rec_fuel]). *)
  Fixpoint crk_rec (fuel : nat) (ts : list tree) (os : list nat) : list tcol :=
    match fuel with
    | 0 => []
    | S f =>
      if all_eqb (root_arities ts) then
        (os, false) :: crk_kids (crk_rec f) (hd 0 (root_arities ts)) 0 ts (map S os)
      else [(os, true)]
    end.
  (* what the walk returns: every column, and the border columns *)
  Definition region_of (L : list tcol) : list (list nat) * list (list nat) :=
    (map fst L, map fst (filter (@snd _ _) L)).

  (* the work list of the walk: k-tuples of sub-terms still to be visited, each with enough fuel *)
  Fixpoint tagsW (W : list (list tree)) (os : list nat) : list tcol :=
    match W with
    | [] => []
    | ts :: W' => crk_rec (match ts with t0 :: _ => S (depth t0) | [] => 0 end) ts os ++ tagsW W' (adv os ts)
    end.
  Definition advW (os : list nat) (W : list (list tree)) : list nat := fold_left adv W os.
  Definition kids_cols (n i : nat) (ts : list tree) : list (list tree) :=
    map (fun i => kid_col i ts) (seq i n).
End Spec.

Section SpecLevel.
  Context {sym : Type}.
  Variable arity : sym -> nat.
  Notation tree := (tree sym).
  Notation wft := (wft arity).
  Notation crk_rec := (crk_rec arity).
  Notation tagsW := (tagsW arity).
  Notation root_arities := (root_arities arity).

  Lemma kids_cols_S n i (ts : list tree) : kids_cols (S n) i ts = kid_col i ts :: kids_cols n (S i) ts.
  Proof. reflexivity. Qed.

  Lemma crk_kids_ext (r1 r2 : list tree -> list nat -> list tcol) : forall n i (ts : list tree) os,
    (forall j os', i <= j < i + n -> r1 (kid_col j ts) os' = r2 (kid_col j ts) os') ->
    crk_kids r1 n i ts os = crk_kids r2 n i ts os.
  Proof.
    induction n as [|n IH]; intros i ts os H; simpl; auto.
    rewrite H by lia. f_equal. apply IH. intros j os' Hj. apply H. lia.
  Qed.

  Lemma nth_child (t : tree) j : wft t = true -> j < arity (root t) ->
    wft (nth j (children t) t) = true /\ depth (nth j (children t) t) < depth t.
  Proof.
    intros W Hj. destruct (wft_children arity t W) as [L Wk].
    assert (Hin : In (nth j (children t) t) (children t)) by (apply nth_In; lia).
    split; [exact (proj1 (Forall_forall _ _) Wk _ Hin)|exact (child_depth_lt t _ Hin)].
  Qed.

  Lemma crk_rec_fuel : forall d d' (t0 : tree) ts' os, wft t0 = true ->
    depth t0 < d -> depth t0 < d' -> crk_rec d (t0 :: ts') os = crk_rec d' (t0 :: ts') os.
  Proof.
    induction d as [|d IH]; intros d' t0 ts' os W H H'; [lia|]. destruct d' as [|d']; [lia|].
    cbn [TreeCRk.crk_rec]. destruct (all_eqb (root_arities (t0 :: ts'))); auto. f_equal.
    apply crk_kids_ext. intros j os' Hj. destruct (nth_child t0 j W) as [Wj Dj]; [exact (proj2 Hj)|].
    apply IH; [exact Wj|lia|lia].
  Qed.

  Lemma advW_step os (c : list tree) W : advW os (c :: W) = advW (adv os c) W.
  Proof. reflexivity. Qed.

  (* the columns of the arguments i, i+1, .. of a tuple, then the rest of the work list: the
     arguments come to the front of the work list *)
  Lemma kids_tagsW (t0 : tree) ts' (W : list (list tree)) : wft t0 = true -> forall n i os,
    i + n <= arity (root t0) ->
    crk_kids (crk_rec (depth t0)) n i (t0 :: ts') os ++ tagsW W (advW os (kids_cols n i (t0 :: ts')))
    = tagsW (kids_cols n i (t0 :: ts') ++ W) os.
  Proof.
    intros W0. induction n as [|n IH]; intros i os Hi; [reflexivity|].
    destruct (nth_child t0 i W0) as [Wi Di]; [lia|].
    rewrite kids_cols_S, advW_step. cbn [crk_kids app TreeCRk.tagsW]. rewrite <- app_assoc, IH by lia.
    f_equal. cbn [kid_col map]. apply crk_rec_fuel; [exact Wi|exact Di|lia].
  Qed.

  Lemma advW_nil (W : list (list tree)) : advW [] W = [].
  Proof. induction W as [|c W IH]; [reflexivity|exact IH]. Qed.

  (* the offsets move tree by tree: behind the arguments i .. i+n-1 of each *)
  Lemma advW_cons : forall n i o os (t : tree) ts, i + n <= length (children t) ->
    advW (o :: os) (kids_cols n i (t :: ts))
    = o + sizes (firstn n (skipn i (children t))) :: advW os (kids_cols n i ts).
  Proof.
    induction n as [|n IH]; intros i o os t ts H.
    - cbn. rewrite Nat.add_0_r. reflexivity.
    - rewrite !kids_cols_S, !advW_step, (skipn_nth_cons (children t) i t) by lia. cbn [firstn].
      change (adv (o :: os) (kid_col i (t :: ts))) with (o + size (nth i (children t) t) :: adv os (kid_col i ts)).
      rewrite IH, sizes_cons, Nat.add_assoc by lia. reflexivity.
  Qed.

  Lemma advW_all_kids ar : forall (ts : list tree) os, length os = length ts ->
    (forall t, In t ts -> length (children t) = ar) ->
    advW (map S os) (kids_cols ar 0 ts) = adv os ts.
  Proof.
    induction ts as [|t ts IH]; intros [|o os] L H; try discriminate L; [apply advW_nil|].
    cbn [map]. rewrite advW_cons, IH by (rewrite ?(H t (or_introl eq_refl)); simpl in *; auto; lia).
    cbn [skipn]. rewrite <- (H t (or_introl eq_refl)), firstn_all.
    change (adv (o :: os) (t :: ts)) with (o + size t :: adv os ts).
    rewrite <- (sizes_children t), Nat.add_succ_r. reflexivity.
  Qed.

  Definition tuples_ok (k : nat) (W : list (list tree)) : Prop :=
    Forall (fun ts => length ts = k /\ Forall (fun t => wft t = true) ts) W.

  (* in a tuple of well-formed trees whose root arities agree the i-th arguments are arguments *)
  Lemma kid_col_wf i (ts : list tree) t0 : Forall (fun t => wft t = true) ts ->
    all_eqb (root_arities ts) = true -> In t0 ts -> i < arity (root t0) ->
    Forall (fun t => wft t = true) (kid_col i ts).
  Proof.
    intros W E H0 Hi. apply Forall_forall. intros u Hu. apply in_map_iff in Hu. destruct Hu as (t & <- & Ht).
    pose proof (same_arity arity _ t0 W E H0 t Ht) as Lc.
    pose proof (proj1 (Forall_forall _ _) W t Ht) as Wt. destruct (wft_children arity t Wt) as [La _].
    apply (nth_child t i Wt). lia.
  Qed.

  (* a common column is replaced by the columns of its arguments *)
  Lemma kids_cols_ok k (t0 : tree) ts' W : tuples_ok k ((t0 :: ts') :: W) ->
    all_eqb (root_arities (t0 :: ts')) = true ->
    tuples_ok k (kids_cols (arity (root t0)) 0 (t0 :: ts') ++ W).
  Proof.
    intros OK E. inversion OK as [|? ? [Lk Wt] OK']; subst. apply Forall_app. split; [|exact OK'].
    apply Forall_forall. intros c Hc.
    apply in_map_iff in Hc. destruct Hc as (i & <- & Hi). apply in_seq in Hi. split.
    - unfold kid_col. apply map_length.
    - apply (kid_col_wf i _ t0 Wt E (or_introl eq_refl)). lia.
  Qed.

  (* one step of the walk on the work list: the first tuple is a common column and its arguments
     come to the front of the work list, or it is a border and is dropped *)
  Lemma tagsW_step (t0 : tree) ts' (W : list (list tree)) os : length os = length (t0 :: ts') ->
    Forall (fun t => wft t = true) (t0 :: ts') ->
    tagsW ((t0 :: ts') :: W) os =
    if all_eqb (root_arities (t0 :: ts'))
    then (os, false) :: tagsW (kids_cols (arity (root t0)) 0 (t0 :: ts') ++ W) (map S os)
    else (os, true) :: tagsW W (adv os (t0 :: ts')).
  Proof.
    intros Lo Wt. inversion Wt as [|? ? W0 _]; subst.
    cbn [TreeCRk.tagsW TreeCRk.crk_rec]. destruct (all_eqb (root_arities (t0 :: ts'))) eqn:E; [|reflexivity].
    cbn [TreeCRk.root_arities map hd app]. f_equal.
    rewrite <- (advW_all_kids (arity (root t0)) (t0 :: ts') os Lo (same_arity arity _ t0 Wt E (or_introl eq_refl))).
    apply kids_tagsW; [exact W0|lia].
  Qed.

  Lemma region_of_common (cs : list (list nat)) : region_of (map (fun c => (c, false)) cs) = (cs, []).
  Proof.
    unfold region_of. f_equal.
    - rewrite map_map. simpl. apply map_id.
    - induction cs; simpl; auto.
  Qed.
  Lemma region_of_app (L1 L2 : list tcol) :
    region_of (L1 ++ L2) = (fst (region_of L1) ++ fst (region_of L2), snd (region_of L1) ++ snd (region_of L2)).
  Proof. unfold region_of. simpl. rewrite filter_app, !map_app. reflexivity. Qed.
End SpecLevel.

Lemma lower_cons o lo l : o < lo -> Forall (le lo) l /\ NoDup l -> Forall (le o) (o :: l) /\ NoDup (o :: l).
Proof.
  intros H [F ND]. rewrite Forall_forall in F. split; constructor; [apply le_n| | |exact ND].
  - apply Forall_forall. intros x Hx. apply F in Hx. lia.
  - intros Hin. apply F in Hin. lia.
Qed.
Lemma map_add_S (l : list nat) i : map S (map (fun o => o + i) l) = map (fun o => o + S i) l.
Proof. rewrite map_map. apply map_ext. intros; lia. Qed.
Lemma map_add_0 (l : list nat) : map (fun o => o + 0) l = l.
Proof. rewrite <- (map_id l) at 2. apply map_ext. intros; lia. Qed.

Lemma col_nil i : col [] [] i = Some [].
Proof. reflexivity. Qed.
Lemma col_cons a arrs o offs i :
  col (a :: arrs) (o :: offs) i =
  match nth_error a (o + i), col arrs offs i with
  | Some x, Some xs => Some (x :: xs)
  | _, _ => None
  end.
Proof. reflexivity. Qed.
Lemma crk_scan_S arrs offs i n :
  crk_scan arrs offs i (S n) =
  match col arrs offs i with
  | None => None
  | Some c =>
    if all_eqb c then
      match crk_scan arrs offs (S i) n with
      | Some (cs, last, b) => Some (map (fun o => o + i) offs :: cs, last, b)
      | None => None
      end
    else Some ([map (fun o => o + i) offs], i, true)
  end.
Proof. reflexivity. Qed.

(* m = the number of columns that every array still has behind its offset: what crk_loop computes *)
Definition avail (arrs : list (list nat)) (offs : list nat) (m : nat) : Prop :=
  Forall2 (fun a o => o + m <= length a) arrs offs /\
  forall c, Forall2 (fun a o => o + c <= length a) arrs offs -> c <= m.

Lemma fold_min_glb b : forall arrs offs, Forall2 (fun a o => o + 0 <= length a) arrs offs -> forall c,
  c <= fold_right Nat.min b (map (fun ao => length (fst ao) - snd ao) (combine arrs offs))
  <-> c <= b /\ Forall2 (fun (a : list nat) o => o + c <= length a) arrs offs.
Proof.
  induction 1 as [|a o arrs offs Ho H IH]; intros c; cbn [combine map fold_right fst snd].
  - split; [intros Hc; split; [exact Hc|constructor]|intros [Hc _]; exact Hc].
  - rewrite Nat.min_glb_iff, IH. split.
    + intros (A & B & C). split; [exact B|constructor; [lia|exact C]].
    + intros (A & B). inversion B; subst. repeat split; [lia|assumption|assumption].
Qed.

Lemma avail_iters : forall arrs offs, arrs <> [] -> Forall2 (fun a o => o + 0 <= length a) arrs offs ->
  avail arrs offs (fold_right Nat.min (length (hd [] arrs) - hd 0 offs)
                     (map (fun ao => length (fst ao) - snd ao) (combine arrs offs))).
Proof.
  intros arrs offs NE H. pose proof (fold_min_glb (length (hd [] arrs) - hd 0 offs) arrs offs H) as G.
  split; [exact (proj2 (proj1 (G _) (le_n _)))|].
  intros c Hc. apply G. split; [|exact Hc]. destruct Hc; [congruence|]. cbn [hd]. lia.
Qed.

Section Loop.
  Context {sym : Type}.
  Variable arity : sym -> nat.
  Notation tree := (tree sym).
  Notation nargs := (nargs arity).
  Notation wft := (wft arity).
  Notation tagsW := (tagsW arity).
  Notation root_arities := (root_arities arity).
  Notation tuples_ok := (tuples_ok arity).

  (* the first components of the tuples of a work list; [map tl] are the other components *)
  Definition col0 (W : list (list tree)) : list tree := flat_map (firstn 1) W.

  Lemma col0_cons (t : tree) ts W : col0 ((t :: ts) :: W) = t :: col0 W.
  Proof. reflexivity. Qed.
  Lemma col0_app (A B : list (list tree)) : col0 (A ++ B) = col0 A ++ col0 B.
  Proof. apply flat_map_app. Qed.
  Lemma col0_kids : forall n i (t0 : tree) ts', i + n <= length (children t0) ->
    col0 (kids_cols n i (t0 :: ts')) = firstn n (skipn i (children t0)).
  Proof.
    induction n as [|n IH]; intros i t0 ts' H; [reflexivity|].
    rewrite kids_cols_S, (skipn_nth_cons (children t0) i t0) by lia.
    cbn [kid_col map firstn]. rewrite col0_cons, IH by lia. reflexivity.
  Qed.
  Lemma tl_kids n i (t0 : tree) ts' : map (@tl _) (kids_cols n i (t0 :: ts')) = kids_cols n i ts'.
  Proof. unfold kids_cols. rewrite map_map. reflexivity. Qed.

  Lemma tuples_ok_tl k (W : list (list tree)) : tuples_ok (S k) W -> tuples_ok k (map (@tl _) W).
  Proof.
    intros H. apply Forall_map. eapply Forall_impl; [|exact H].
    intros [|t ts] [L F]; [discriminate|]. inversion F; subst. simpl in *. split; [lia|assumption].
  Qed.

  (* the first positions of the columns of the walk increase; in particular they are distinct *)
  Lemma tagsW_heads k (W : list (list tree)) os :
    tuples_ok (S k) W -> length os = S k ->
    Forall (le (hd 0 os)) (map (fun c : tcol => hd 0 (fst c)) (tagsW W os)) /\
    NoDup (map (fun c : tcol => hd 0 (fst c)) (tagsW W os)).
  Proof.
    (* by induction on the number of nodes of the first components of the work list *)
    pose proof (le_n (sizes (col0 W))) as HN. revert HN. generalize (sizes (col0 W)) at 2. intros N. revert W os.
    induction N as [|N IH]; intros [|ts W] os HN OK Lo; try (split; constructor);
      inversion OK as [|? ? [Lt Wt] OK']; subst; destruct ts as [|t0 ts']; try discriminate;
      rewrite col0_cons, sizes_cons in HN; pose proof (size_pos t0) as P0; [lia|].
    destruct os as [|o0 os']; [discriminate|]. rewrite tagsW_step by (auto; congruence).
    destruct (wft_children arity t0 (Forall_inv Wt)) as [L0 _].
    destruct (all_eqb (root_arities (t0 :: ts'))) eqn:A; cbn [map fst hd].
    - apply (lower_cons o0 (S o0)), (IH _ (map S (o0 :: os'))); [lia| | |rewrite map_length; exact Lo].
      + rewrite col0_app, sizes_app, col0_kids, <- L0, firstn_all by lia. cbn [skipn].
        pose proof (sizes_children t0). lia.
      + exact (kids_cols_ok arity _ _ _ _ OK A).
    - apply (lower_cons o0 (o0 + size t0)), (IH W (adv (o0 :: os') (t0 :: ts'))); [lia|lia|exact OK'|].
      unfold adv. rewrite map_length, combine_length. simpl in *. lia.
  Qed.

  (* the array holds, from position o + i on, the encoding of the pending forest F *)
  Definition st (i : nat) (a : list nat) (o : nat) (F : list tree) : Prop :=
    exists pre, a = pre ++ nargs (flats F) /\ o + i = length pre.
  (* ... array j the j-th components of the work list *)
  Fixpoint stW (i : nat) (arrs : list (list nat)) (offs : list nat) (W : list (list tree)) : Prop :=
    match arrs, offs with
    | [], [] => True
    | a :: arrs', o :: offs' => st i a o (col0 W) /\ stW i arrs' offs' (map (@tl _) W)
    | _, _ => False
    end.

  Lemma stW_length i : forall arrs offs W, stW i arrs offs W -> length offs = length arrs.
  Proof.
    induction arrs as [|a arrs IH]; intros [|o offs] W H; try contradiction; [reflexivity|].
    simpl. f_equal. exact (IH _ _ (proj2 H)).
  Qed.

  (* what the arrays still hold: nothing when the work list is empty, at least one column otherwise *)
  Lemma stW_bounds i : forall arrs offs W, stW i arrs offs W -> tuples_ok (length arrs) W ->
    Forall2 (fun a o => o + i <= length a) arrs offs /\
    (W = [] -> Forall2 (fun a o => length a = o + i) arrs offs) /\
    (W <> [] -> Forall2 (fun a o => o + S i <= length a) arrs offs).
  Proof.
    induction arrs as [|a arrs IH]; intros [|o offs] W H OK; try contradiction; [repeat split; constructor|].
    destruct H as [(pre & -> & Lp) H]. destruct (IH offs _ H (tuples_ok_tl _ _ OK)) as (A & B & C).
    assert (La : length (pre ++ nargs (flats (col0 W))) = o + i + sizes (col0 W))
      by (rewrite app_length, nargs_length, flats_length; lia).
    split; [constructor; [lia|exact A]|]. split.
    - intros ->. constructor; [rewrite La; apply Nat.add_0_r|auto].
    - intros NE. destruct W as [|[|t ts] W]; [congruence| |].
      + inversion OK as [|? ? [L _] _]; discriminate.
      + constructor; [|apply C; discriminate]. rewrite La, col0_cons, sizes_cons. pose proof (size_pos t). lia.
  Qed.

  Lemma col_heads i : forall arrs offs (ts : list tree) W, stW i arrs offs (ts :: W) ->
    length ts = length arrs -> col arrs offs i = Some (root_arities ts).
  Proof.
    induction arrs as [|a arrs IH]; intros [|o offs] ts W H L; try contradiction.
    - destruct ts; [reflexivity|discriminate].
    - destruct ts as [|[s kids] ts']; [discriminate|]. destruct H as [(pre & -> & Lp) H].
      rewrite col_cons, (IH offs ts' _ H) by (simpl in L; lia).
      rewrite Lp, col0_cons, nargs_flats_Node_cons, nth_error_occ. reflexivity.
  Qed.

  Lemma common_step i ar : forall arrs offs (ts : list tree) W, stW i arrs offs (ts :: W) ->
    length ts = length arrs -> (forall t, In t ts -> length (children t) = ar) ->
    stW (S i) arrs offs (kids_cols ar 0 ts ++ W).
  Proof.
    induction arrs as [|a arrs IH]; intros [|o offs] ts W H L CH; try contradiction; [exact I|].
    destruct ts as [|[s kids] ts']; [discriminate|]. destruct H as [(pre & -> & Lp) H]. split.
    - exists (pre ++ [arity s]). split; [|rewrite app_length; simpl; lia].
      rewrite col0_app, col0_kids by (rewrite (CH _ (or_introl eq_refl)); lia).
      rewrite <- (CH _ (or_introl eq_refl)), firstn_all, col0_cons, nargs_flats_Node_cons, <- app_assoc.
      reflexivity.
    - rewrite map_app, tl_kids. apply IH; [exact H|simpl in L; lia|intros t Ht; apply CH; right; exact Ht].
  Qed.

  Lemma advance_spec i : forall arrs offs (ts : list tree) W, stW i arrs offs (ts :: W) ->
    length ts = length arrs -> Forall (fun t => wft t = true) ts -> tuples_ok (length arrs) W ->
    stW 0 arrs (adv (map (fun o => o + i) offs) ts) W /\
    (W <> [] -> crk_advance (combine arrs offs) i = Some (adv (map (fun o => o + i) offs) ts, false)) /\
    (W = [] -> arrs <> [] -> exists x, crk_advance (combine arrs offs) i = Some (x, true)).
  Proof.
    induction arrs as [|a arrs IH]; intros [|o offs] ts W H L Wt OK; try contradiction.
    - destruct ts; [|discriminate]. repeat split; auto. congruence.
    - destruct ts as [|t ts']; [discriminate|]. destruct H as [(pre & -> & Lp) H].
      inversion Wt as [|? ? W0 Wt']; subst.
      destruct (IH offs ts' _ H ltac:(simpl in L; lia) Wt' (tuples_ok_tl _ _ OK)) as (A & B & _).
      rewrite col0_cons, flats_cons, nargs_app.
      assert (FE : find_end (pre ++ nargs (flatten t) ++ nargs (flats (col0 W))) (o + i)
                   = Some (o + i + size t)) by (rewrite Lp; apply find_end_occ; exact W0).
      unfold adv. cbn [map combine fst snd crk_advance]. fold (adv (map (fun o0 => o0 + i) offs) ts').
      rewrite FE, !app_length, !nargs_length, flatten_length, flats_length. split; [|split].
      + split; [|exact A]. exists (pre ++ nargs (flatten t)). split; [apply app_assoc|].
        rewrite app_length, nargs_length, flatten_length. lia.
      + intros NE. destruct W as [|[|t1 ts1] W]; [congruence| |].
        * inversion OK as [|? ? [L1 _] _]; discriminate.
        * rewrite col0_cons, sizes_cons, (proj2 (Nat.leb_gt _ _)) by (pose proof (size_pos t1); lia).
          rewrite B by discriminate. reflexivity.
      + intros -> _. change (sizes (col0 [])) with 0. rewrite (proj2 (Nat.leb_le _ _)) by lia. eauto.
  Qed.

  (* one call of crk_scan from column i with n columns left: it passes common columns cs and stops at
     column i + e, the roots of a tuple ts, which is a border (b = true) or the last column the arrays
     have (b = false, nothing is left); behind ts the work list W' remains *)
  Lemma scan_spec m : forall n i arrs offs (W : list (list tree)), arrs <> [] -> W <> [] ->
    stW i arrs offs W -> tuples_ok (length arrs) W -> avail arrs offs m -> m = i + n ->
    exists e cs ts W' b,
      crk_scan arrs offs i n = Some (cs ++ [map (fun o => o + (i + e)) offs], i + e, b) /\
      tagsW W (map (fun o => o + i) offs)
      = map (fun c => (c, false)) cs
        ++ (map (fun o => o + (i + e)) offs, b) :: tagsW W' (adv (map (fun o => o + (i + e)) offs) ts) /\
      stW (i + e) arrs offs (ts :: W') /\ tuples_ok (length arrs) (ts :: W') /\
      (b = false -> W' = []).
  Proof.
    induction n as [|n IH]; intros i arrs offs W NA NE H OK [Hle Hge] Em.
    - exfalso. destruct (stW_bounds i _ _ _ H OK) as (_ & _ & C). specialize (Hge _ (C NE)). lia.
    - destruct W as [|ts W0]; [congruence|].
      inversion OK as [|? ? [Lt Wt] OK0]; subst. destruct ts as [|t0 ts']; [destruct arrs; [congruence|discriminate]|].
      pose proof (stW_length _ _ _ _ H) as Lo.
      rewrite crk_scan_S, (col_heads i _ _ _ _ H Lt).
      rewrite (tagsW_step arity t0 ts' W0) by (auto; rewrite map_length; congruence).
      destruct (all_eqb (root_arities (t0 :: ts'))) eqn:EA.
      + (* all arities agree: continue into the arguments *)
        pose proof (same_arity arity _ t0 Wt EA (or_introl eq_refl)) as CH.
        pose proof (common_step i _ _ _ _ _ H Lt CH) as H'.
        pose proof (kids_cols_ok arity _ _ _ _ OK EA) as OK'.
        rewrite map_add_S.
        destruct (kids_cols (arity (root t0)) 0 (t0 :: ts') ++ W0) as [|w W1] eqn:EW.
        * (* nothing left: every array ends behind this column *)
          apply app_eq_nil in EW. destruct EW as [_ ->].
          destruct (stW_bounds (S i) _ _ _ H' OK') as (_ & B & _). specialize (B eq_refl).
          assert (n = 0).
          { destruct B as [|a o ? ? Ea _]; [congruence|]. inversion Hle; subst. lia. }
          subst n. exists 0, [], (t0 :: ts'), [], false. rewrite Nat.add_0_r. simpl crk_scan.
          rewrite Nat.sub_0_r. repeat split; auto.
        * destruct (IH (S i) arrs offs (w :: W1) NA ltac:(discriminate) H' OK' (conj Hle Hge) ltac:(lia))
            as (e & cs & ts & W' & b & SC & SP & ST & OKT & BW).
          exists (S e), (map (fun o => o + i) offs :: cs), ts, W', b.
          rewrite <- !Nat.add_succ_comm, SC, SP. repeat split; auto.
      + (* the arities differ: border *)
        exists 0, [], (t0 :: ts'), W0, true. rewrite Nat.add_0_r. repeat split; auto. discriminate.
  Qed.

  Lemma crk_loop_spec : forall fuel arrs offs (W : list (list tree)), arrs <> [] -> W <> [] ->
    stW 0 arrs offs W -> tuples_ok (length arrs) W ->
    length (hd [] arrs) - hd 0 offs < fuel ->
    crk_loop fuel arrs offs = Some (region_of (tagsW W offs)).
  Proof.
    induction fuel as [|f IH]; intros arrs offs W NA NE H OK HF; [lia|].
    destruct (stW_bounds 0 _ _ _ H OK) as (B0 & _ & B1). specialize (B1 NE).
    cbn [crk_loop].
    destruct (scan_spec _ _ 0 arrs offs W NA NE H OK (avail_iters arrs offs NA B0) eq_refl)
      as (e & cs & ts & W' & b & SC & SP & ST & OKT & BW).
    simpl Nat.add in *. rewrite SC. rewrite map_add_0 in SP. rewrite SP.
    inversion OKT as [|? ? [Lt Wt] OK']; subst.
    destruct (advance_spec e _ _ _ _ ST Lt Wt OK') as (ST' & AC & AE).
    rewrite region_of_app, region_of_common. cbn [fst snd].
    destruct W' as [|w W'].
    - (* every tree is exhausted *)
      destruct (AE eq_refl NA) as [x ->]. destruct b; reflexivity.
    - rewrite AC by discriminate. destruct b; [|discriminate (BW eq_refl)].
      rewrite (IH arrs _ (w :: W') NA ltac:(discriminate) ST' OK').
      + unfold region_of. cbn [map filter fst snd app]. rewrite <- app_assoc. reflexivity.
      + destruct B1 as [|a0 o0 ? ? La _]; [congruence|]. destruct ts as [|t0 ts']; [discriminate|].
        cbn [hd adv map combine fst snd] in *. pose proof (size_pos t0). lia.
  Qed.

  (* for every non-empty tuple of well-formed trees the k-tree walk returns every
     column and every border column of the recursive common region *)
  Theorem common_region_k_spec : forall (T0 : tree) (Ts' : list tree) d,
    Forall (fun t => wft t = true) (T0 :: Ts') -> depth T0 < d ->
    common_region_k (map (fun t => nargs (flatten t)) (T0 :: Ts'))
    = Some (region_of (crk_rec arity d (T0 :: Ts') (map (fun _ => 0) (T0 :: Ts')))).
  Proof.
    intros T0 Ts' d W Hd. rewrite (crk_rec_fuel arity d (S (depth T0))) by (inversion W; auto).
    set (Ts := T0 :: Ts') in *. unfold common_region_k. rewrite map_map.
    assert (ST : stW 0 (map (fun t => nargs (flatten t)) Ts) (map (fun _ => 0) Ts) [Ts]).
    { clear. induction Ts as [|t Ts IH]; [exact I|]. split; [|exact IH].
      exists []. split; [|reflexivity]. cbn [col0 flat_map firstn app]. rewrite flats_singleton. reflexivity. }
    rewrite (crk_loop_spec _ _ _ [Ts]); try discriminate; auto.
    - simpl. rewrite app_nil_r. reflexivity.
    - constructor; [|constructor]. split; [symmetry; apply map_length|exact W].
    - simpl. lia.
  Qed.
End Loop.
