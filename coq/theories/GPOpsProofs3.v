(* GPOpsProofs3.v — C08, part 3: swap mutation.
   The repaired code (splices from the right-most argument position to the left) permutes the
   arguments of ONE node of arity > 1 and changes nothing else — for EVERY arity.  The code as it
   was (splices in argument order, positions stale after the first splice) is refuted in props/C08.v
   on the arity-3 witnesses at the end of this file, evaluated with vm_compute. *)
From Coq Require Import Permutation Sorted.
From TF Require Import SortLemmas RandomPrimsProofs RandomPrimsProofs2 TreeProofs GPOps GPOpsProofs.
Open Scope nat_scope.

(* GPOps.sort_desc is the insertion sort of SortLemmas.v, by decreasing second component *)
Lemma sort_desc_by l : sort_desc l = fold_right (ins_by (fun x y : nat * nat => snd y <? snd x)) [] l.
Proof. reflexivity. Qed.

Definition desc (l : list nat) : Prop := StronglySorted (fun a b => b <= a) l.

(* zip(old, new) sorted by decreasing new position, when the new positions are a permutation of the
   (increasing) old ones: the slots come out right to left, the sources are still all the old ones *)
Lemma sorted_pairs (args new : list nat) : Permutation args new -> desc (rev args) ->
  map snd (sort_desc (combine args new)) = rev args /\
  Permutation args (map fst (sort_desc (combine args new))).
Proof.
  intros Pn D. pose proof (Permutation_length Pn) as Ln. rewrite sort_desc_by.
  pose proof (sort_by_perm (fun x y : nat * nat => snd y <? snd x) (combine args new)) as P. split.
  - apply (sorted_perm_eq (fun a b => b <= a)); [intros; lia| |exact D|].
    + apply sorted_map, (sort_by_sorted (fun x y : nat * nat => snd y <= snd x)); intros x y.
      * lia.
      * intros E. apply Nat.ltb_lt in E. lia.
      * apply Nat.ltb_ge.
    + rewrite (Permutation_map snd P), map_snd_combine, <- Pn by auto. apply Permutation_rev.
  - rewrite (Permutation_map fst P), map_fst_combine by auto. reflexivity.
Qed.

Lemma flip_coin_valid p ds b ds' : valid_draws ds -> flip_coin p ds = Some (b, ds') -> valid_draws ds'.
Proof.
  unfold flip_coin, bind, popU, ret. intros Hv H. destruct ds as [|[u|? ?|?] r]; try discriminate.
  inversion H; subst. inversion Hv; auto.
Qed.
Lemma sample_index_valid n ds i ds' : valid_draws ds -> sample_index n ds = Some (i, ds') -> valid_draws ds'.
Proof.
  unfold sample_index. intros Hv H. mstep H. mstep H. inversion H; subst.
  eapply random_sample_suffix; eauto.
Qed.

Section S.
  Context {sym : Type}.
  Variable arity : sym -> nat.
  Notation tree := (tree sym).
  Notation nargs := (nargs arity).
  Notation wft := (wft arity).
  Notation wff := (wff arity).
  Notation mk := (mk arity).
  Notation good := (good arity).

  Lemma child_starts_app : forall (a b : list tree) o,
    child_starts o (a ++ b) = child_starts o a ++ child_starts (o + sizes a) b.
  Proof.
    induction a as [|k a IH]; intros b o; simpl.
    - rewrite sizes_nil, Nat.add_0_r. reflexivity.
    - rewrite IH, sizes_cons, Nat.add_assoc. reflexivity.
  Qed.

  Lemma child_starts_ge : forall (kids : list tree) o x, In x (child_starts o kids) -> o <= x.
  Proof.
    induction kids as [|k r IH]; intros o x H; simpl in H; [contradiction|].
    destruct H as [<-|H]; auto. apply IH in H. lia.
  Qed.
  Lemma child_starts_rev_desc : forall (kids : list tree) o, desc (rev (child_starts o kids)).
  Proof.
    unfold desc. induction kids as [|k r IH] using rev_ind; intros o; simpl; [constructor|].
    rewrite child_starts_app. simpl. rewrite rev_app_distr. simpl.
    apply SSorted_cons; auto. rewrite Forall_forall. intros x Hx. apply in_rev in Hx.
    clear IH. revert o x Hx. induction r as [|k' r IH]; intros o x Hx; simpl in Hx; [contradiction|].
    rewrite sizes_cons. destruct Hx as [<-|Hx]; [lia|]. apply IH in Hx. pose proof (size_pos k'). lia.
  Qed.

  (* what subtree(o) returns at every argument position *)
  Definition arg_at (orig : list sym) (o : nat) (k : tree) : Prop :=
    wft k = true /\ subtree arity orig o = Some (flatten k).
  Lemma args_subtrees : forall (kids : list tree) pre post, wff kids = true ->
    Forall2 (arg_at (pre ++ flats kids ++ post)) (child_starts (length pre) kids) kids.
  Proof.
    induction kids as [|k r IH]; intros pre post W; cbn [child_starts]; [constructor|].
    apply wff_cons in W. destruct W as (Wk & Wr). constructor.
    - split; auto. rewrite flats_cons, <- app_assoc. apply subtree_occ; auto.
    - specialize (IH (pre ++ flatten k) post Wr).
      rewrite app_length, flatten_length, <- app_assoc in IH. rewrite flats_cons, <- app_assoc. exact IH.
  Qed.

  (* the splice loop: slots are visited from the right-most to the left; [todo] are the arguments not yet
     overwritten (their positions are still those of the original tree), [done] the new suffix *)
  Lemma splice_all_desc s post (orig : list sym) : forall (todo : list tree) pre (done : list tree) L Ks,
    wff todo = true ->
    map snd L = rev (child_starts (S (length pre)) todo) ->
    Forall2 (arg_at orig) (map fst L) Ks ->
    splice_all (mk orig) L (mk (pre ++ s :: flats todo ++ flats done ++ post))
    = Some (mk (pre ++ s :: flats (rev Ks) ++ flats done ++ post)).
  Proof.
    induction todo as [|k todo IH] using rev_ind; intros pre done L Ks W HL HK.
    - simpl in HL. destruct L; [|discriminate]. inversion HK; subst. reflexivity.
    - rewrite child_starts_app in HL. simpl in HL. rewrite rev_app_distr in HL. simpl in HL.
      destruct L as [|[old nw] L]; [discriminate|]. simpl in HL. inversion HL as [[Hnw HL']]; clear HL.
      simpl in HK. inversion HK as [|? K0 ? Ks' (WK0 & HS) HK']; subst.
      rewrite wff_app, wff_singleton in W. apply andb_true_iff in W. destruct W as (Wt & Wk).
      cbn [splice_all]. rewrite subtree_p_mk, HS. cbn [option_map].
      rewrite concat_p_mk.
      replace (pre ++ s :: flats (todo ++ [k]) ++ flats done ++ post)
        with ((pre ++ s :: flats todo) ++ flatten k ++ (flats done ++ post))
        by (rewrite flats_app, flats_singleton, <- !app_assoc; reflexivity).
      replace (S (length pre + sizes todo)) with (length (pre ++ s :: flats todo))
        by (rewrite app_length; simpl; rewrite flats_length; lia).
      rewrite concat_occ by auto. cbn [option_map obind].
      replace ((pre ++ s :: flats todo) ++ flatten K0 ++ flats done ++ post)
        with (pre ++ s :: flats todo ++ flats (K0 :: done) ++ post)
        by (rewrite flats_cons, <- !app_assoc; reflexivity).
      rewrite (IH pre (K0 :: done) L Ks' Wt HL' HK').
      simpl rev. rewrite flats_app, flats_singleton, flats_cons, <- !app_assoc. reflexivity.
  Qed.

  (* named behaviour: the arguments of ONE node of arity > 1 are permuted; nothing else changes *)
  Definition is_arg_perm (T C : tree) : Prop :=
    exists i s kids K, sub_at T i = Some (Node s kids) /\ 1 < arity s /\ Permutation kids K /\
      C = replace_at T i (Node s K).

  (* the splices of swap on a node whose argument positions have been permuted: the arguments come
     out permuted, everything around the node stays *)
  Lemma splice_args s (kids : list tree) pre post (L : list (nat * nat)) : wff kids = true ->
    map snd L = rev (child_starts (S (length pre)) kids) ->
    Permutation (child_starts (S (length pre)) kids) (map fst L) ->
    let orig := pre ++ flatten (Node s kids) ++ post in
    exists K, Permutation kids K /\ Forall (fun k => wft k = true) K /\
      splice_all (mk orig) L (mk orig) = Some (mk (pre ++ flatten (Node s K) ++ post)).
  Proof.
    intros Wk HLsnd HLfst orig. pose proof (args_subtrees kids (pre ++ [s]) post Wk) as HA.
    rewrite app_length, Nat.add_1_r, <- app_assoc in HA.
    destruct (Permutation_Forall2 HLfst HA) as (Ks & PK & HK). exists (rev Ks).
    split; [exact (Permutation_trans PK (Permutation_rev Ks))|]. split.
    - apply Forall_rev. clear - HK. induction HK as [|o k l1 l2 (Wk' & _) _ IH]; constructor; auto.
    - exact (splice_all_desc s post orig kids pre [] L Ks Wk HLsnd HK).
  Qed.

  Theorem swap_mutation_spec t T (U : uniset) proba ds c ds' :
    good t T -> valid_draws ds ->
    swap_mutation t U proba ds = Some (c, ds') ->
    exists C, good c C /\ (C = T \/ is_arg_perm T C).
  Proof.
    intros G Hv H. unfold swap_mutation, swap_with in H.
    mstep H. pose proof (flip_coin_valid _ _ _ _ Hv Hm) as Hv1. destruct a.
    2:{ mstep H. inversion H; subst. exists T. auto. }
    destruct (positions_where (fun n => 1 <? n) (snd t)) as [|i0 idx] eqn:Ei.
    { mstep H. inversion H; subst. exists T. auto. }
    mstep H. pose proof (sample_index_valid _ _ _ _ Hv1 Hm0) as Hv2.
    destruct (nth_error (i0 :: idx) a) as [i|] eqn:En; [|mstep H].
    destruct (find_args (snd t) i) as [args|] eqn:Ea; [|mstep H].
    mstep H. mstep H. inversion H; subst; clear H.
    assert (Hpos : In i (positions_where (fun n => 1 <? n) (snd t))) by (rewrite Ei; eapply nth_error_In; eauto).
    apply positions_where_In in Hpos. destruct Hpos as (n & Hn & Hn1). apply Nat.ltb_lt in Hn1.
    destruct (find_args_good arity _ _ _ _ G Ea) as (s & kids & pre & post & Hu & Wu & E & <- & R & -> & Har).
    destruct G as (W & ->). apply wft_Node in Wu. destruct Wu as (Lk & Wk).
    (* the shuffled positions, sorted: the slots right to left, the sources still all the arguments *)
    destruct (sorted_pairs _ a0 (sattolo_perm _ _ _ _ _ Hv2 Hm1) (child_starts_rev_desc kids _)) as [HLsnd HLfst].
    destruct (splice_args s kids pre post _ Wk HLsnd HLfst) as (K & PK & WK & X).
    rewrite E, X in Hl. inversion Hl; subst a1; clear Hl.
    exists (replace_at T (length pre) (Node s K)). split.
    - split; [|rewrite R; reflexivity].
      apply replace_at_wf; auto. apply wft_Node. rewrite <- (Permutation_length PK), wff_Forall. auto.
    - right. exists (length pre), s, kids, K. repeat split; auto. congruence.
  Qed.

  Lemma sizes_perm (a b : list tree) : Permutation a b -> sizes a = sizes b.
  Proof.
    induction 1 as [|x l l' P IH|x y l|l l' l'' P1 IH1 P2 IH2].
    - reflexivity.
    - rewrite !sizes_cons. lia.
    - rewrite !sizes_cons. lia.
    - lia.
  Qed.

  Lemma arg_perm_graft T C : is_arg_perm T C -> is_graft (fun _ => False) T C.
  Proof.
    intros (i & s & kids & K & Hu & _ & P & ->). exists i, (Node s kids), (Node s K). repeat split; auto.
    - apply depth_Node_le, (Permutation_Forall P). exact (proj1 (depth_Node_le s kids _) (le_n _)).
    - intros x [<-|Hx]; [left; left; reflexivity|]. left. right. apply in_flats in Hx. destruct Hx as (k & Hk & Hx).
      apply in_flats. exists k. split; [exact (Permutation_in k (Permutation_sym P) Hk)|exact Hx].
  Qed.
  Lemma arg_perm_size T C : is_arg_perm T C -> size C = size T.
  Proof.
    intros (i & s & kids & K & Hu & _ & P & ->).
    destruct (sub_at_decomp T i _ Hu) as (pre & post & E & _ & R).
    rewrite <- !flatten_length, R, E, !app_length, !flatten_length, !size_Node, (sizes_perm _ _ P). reflexivity.
  Qed.

  Theorem swap_mutation_closed t (U : uniset) proba ds c ds' :
    wfp arity t -> valid_draws ds ->
    swap_mutation t U proba ds = Some (c, ds') ->
    wfp arity c /\ (forall x, In x (fst c) -> In x (fst t)) /\ depthp c <= depthp t.
  Proof.
    intros W Hv H. apply (mutation_closed_in arity _ t c arg_perm_graft W).
    intros T G. exact (swap_mutation_spec _ _ _ _ _ _ _ G Hv H).
  Qed.
End S.

Definition sy2 := (nat * nat)%type.
Definition U0 : uniset (sym := sy2) := {| u_funcs := []; u_terms := [] |}.
(* f(g(x2), x3, x4): arguments of different sizes under a node of arity 3 *)
Definition wit_tree : list sy2 := [(96, 3); (33, 1); (2, 0); (3, 0); (4, 0)].
Definition wit_draws : list draw := [DU (1 # 4); DI 1 0; DU (3 # 4); DU (1 # 2)].
(* f(x1, g(x3), x4): the stale position runs past the end of the arity array *)
Definition wit_tree2 : list sy2 := [(96, 3); (1, 0); (34, 1); (3, 0); (4, 0)].
Definition wit_draws2 : list draw := [DU (1 # 4); DI 1 0; DU (1 # 4); DU (1 # 2)].

Lemma wit_valid : valid_draws wit_draws /\ valid_draws wit_draws2.
Proof. split; repeat constructor; simpl; try lra; try lia. Qed.
