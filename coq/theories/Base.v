(* Base.v — conventions shared by all models (DESIGN §4).
   Randomness is an explicit list of primitive results ("draws") consumed in order. *)
From Coq Require Export List ZArith QArith Qabs Bool Lia Lqa.
Export ListNotations.

(* DU u   : result of random.random()                    (0 <= u < 1)
   DI n v : result of np.random.randint(0, n)            (0 <= v < n)
   DX v   : result of a real-valued primitive (cauchy, normal, uniform(l,h)) *)
Inductive draw := DU (u : Q) | DI (n v : Z) | DX (v : Q).

Definition M (A : Type) := list draw -> option (A * list draw).
Definition ret {A} (a : A) : M A := fun ds => Some (a, ds).
Definition bind {A B} (m : M A) (f : A -> M B) : M B :=
  fun ds => match m ds with Some (a, ds') => f a ds' | None => None end.
Notation "x <- m ;; k" := (bind m (fun x => k)) (at level 61, m at next level, right associativity).

Definition popU : M Q := fun ds => match ds with DU u :: r => Some (u, r) | _ => None end.
Definition popI (n : Z) : M Z :=
  fun ds => match ds with DI m v :: r => if (m =? n)%Z then Some (v, r) else None | _ => None end.
Definition popX : M Q := fun ds => match ds with DX v :: r => Some (v, r) | _ => None end.

Definition valid_draw (d : draw) : Prop :=
  match d with
  | DU u => 0 <= u /\ u < 1
  | DI n v => (0 <= v < n)%Z
  | DX _ => True
  end.
Definition valid_draws (ds : list draw) : Prop := Forall valid_draw ds.

Lemma bind_inv {A B} (m : M A) (k : A -> M B) ds b ds2 :
  bind m k ds = Some (b, ds2) -> exists a ds1, m ds = Some (a, ds1) /\ k a ds1 = Some (b, ds2).
Proof. unfold bind. destruct (m ds) as [[a ds1]|]; [eauto|discriminate]. Qed.
Lemma bind_congr {A B} (m m' : M A) (k k' : A -> M B) ds :
  m ds = m' ds -> (forall a ds', m' ds = Some (a, ds') -> k a ds' = k' a ds') -> bind m k ds = bind m' k' ds.
Proof. intros Hm Hk. unfold bind. rewrite Hm. destruct (m' ds) as [[a ds']|]; auto. Qed.
Lemma bind_ret_r {A} (m : M A) ds : bind m ret ds = m ds.
Proof. unfold bind. now destruct (m ds) as [[a ds']|]. Qed.
Lemma bind_assoc {A B C} (m : M A) (f : A -> M B) (g : B -> M C) ds :
  bind (bind m f) g ds = bind m (fun a => bind (f a) g) ds.
Proof. unfold bind. now destruct (m ds) as [[a ds']|]. Qed.
Lemma valid_tail d ds : valid_draws (d :: ds) -> valid_draws ds.
Proof. intros H; inversion H; auto. Qed.
Lemma popU_inv ds u ds' : valid_draws ds -> popU ds = Some (u, ds') ->
  ds = DU u :: ds' /\ 0 <= u /\ u < 1 /\ valid_draws ds'.
Proof.
  intros Hv H. destruct ds as [|[v| |] r]; try discriminate. inversion H; subst.
  inversion Hv as [|? ? Hd Hr]. destruct Hd. auto.
Qed.
Lemma popI_inv n ds v ds' : valid_draws ds -> popI n ds = Some (v, ds') ->
  ds = DI n v :: ds' /\ (0 <= v < n)%Z /\ valid_draws ds'.
Proof.
  intros Hv H. destruct ds as [|[|m w|] r]; try discriminate. unfold popI in H.
  destruct (Z.eqb_spec m n) as [->|]; [|discriminate].
  inversion H; subst. inversion Hv as [|? ? Hd Hr]. auto.
Qed.
Lemma popX_inv ds x ds' : valid_draws ds -> popX ds = Some (x, ds') -> ds = DX x :: ds' /\ valid_draws ds'.
Proof.
  intros Hv H. destruct ds as [|[| |y] r]; try discriminate. inversion H; subst. eauto using valid_tail.
Qed.

(* invert a chain of binds ending in ret that succeeded: one equation per step *)
Ltac minv H :=
  unfold bind, ret in H;
  repeat match type of H with
  | match ?m with Some _ => _ | None => _ end = Some _ =>
      let E := fresh "E" in destruct m as [[? ?]|] eqn:E; [|discriminate]
  end;
  match type of H with
  | Some _ = Some _ => inversion H; subst; clear H
  | _ => idtac
  end.

Definition Qltb (a b : Q) : bool := negb (Qle_bool b a).
Lemma Qltb_lt a b : Qltb a b = true <-> a < b.
Proof.
  unfold Qltb. rewrite negb_true_iff. split; intro H.
  - apply Qnot_le_lt. intro Hle. apply Qle_bool_iff in Hle. congruence.
  - destruct (Qle_bool b a) eqn:E; [|reflexivity].
    apply Qle_bool_iff in E. exfalso. apply (Qlt_not_le _ _ H E).
Qed.
Lemma Qltb_ge a b : Qltb a b = false <-> b <= a.
Proof. unfold Qltb. rewrite negb_false_iff. apply Qle_bool_iff. Qed.
#[global] Instance Qltb_comp : Proper (Qeq ==> Qeq ==> eq) Qltb.
Proof. intros a a' Ha b b' Hb. exact (f_equal negb (Qleb_comp b b' Hb a a' Ha)). Qed.
Lemma Qle_bool_false a b : Qle_bool a b = false <-> b < a.
Proof.
  split; intro H.
  - apply Qnot_le_lt. intro Hle. apply Qle_bool_iff in Hle. congruence.
  - destruct (Qle_bool a b) eqn:E; [|reflexivity].
    apply Qle_bool_iff in E. exfalso. apply (Qlt_not_le _ _ H E).
Qed.

(* floor of a rational, as used by  np.int64(np.floor(x))  and  np.int64(x)  for x >= 0 *)
Definition Qfloor' (q : Q) : Z := (Qnum q / Zpos (Qden q))%Z.

Fixpoint upd {A} (l : list A) (i : nat) (x : A) : list A :=
  match l, i with
  | [], _ => []
  | _ :: t, O => x :: t
  | h :: t, S i' => h :: upd t i' x
  end.
Definition swap {A} (d : A) (l : list A) (i j : nat) : list A :=
  upd (upd l i (nth j l d)) j (nth i l d).

Lemma upd_length {A} (l : list A) i x : length (upd l i x) = length l.
Proof. revert i; induction l as [|h t IH]; intros [|i]; simpl; auto. Qed.
Lemma nth_upd_eq {A} (l : list A) i x d : (i < length l)%nat -> nth i (upd l i x) d = x.
Proof. revert i; induction l as [|h t IH]; intros [|i] H; simpl in *; try lia; auto. apply IH; lia. Qed.
Lemma nth_upd_neq {A} (l : list A) i j x d : i <> j -> nth j (upd l i x) d = nth j l d.
Proof.
  revert i j; induction l as [|h t IH]; intros [|i] [|j] H; simpl; auto; try congruence.
Qed.

Lemma upd_map {A B} (f : A -> B) l i x : upd (map f l) i (f x) = map f (upd l i x).
Proof. revert i; induction l as [|h t IH]; intros [|i]; simpl; auto. now rewrite IH. Qed.

Lemma nth_map_default {A B} (f : A -> B) l : forall n dA dB, (n < length l)%nat ->
  nth n (map f l) dB = f (nth n l dA).
Proof. induction l as [|x t IH]; intros [|n] dA dB H; simpl in *; try lia; auto. apply IH; lia. Qed.
Lemma map_seq_nth {A} (f : nat -> A) n i d : (i < n)%nat -> nth i (map f (seq 0 n)) d = f i.
Proof. intro H. rewrite (nth_map_default f _ i O) by now rewrite seq_length. now rewrite seq_nth. Qed.
Lemma map_nth_seq {A} (l : list A) d : map (fun i => nth i l d) (seq 0 (length l)) = l.
Proof.
  apply (nth_ext _ _ d d); rewrite map_length, seq_length; [reflexivity|].
  intros i Hi. exact (map_seq_nth (fun i => nth i l d) _ i d Hi).
Qed.
Lemma nth_repeat_lt {A} (a d : A) n i : (i < n)%nat -> nth i (repeat a n) d = a.
Proof. intro H. rewrite (nth_indep _ d a) by now rewrite repeat_length. apply nth_repeat. Qed.
Lemma swap_map {A B} (f : A -> B) d d' l i j : (i < length l)%nat -> (j < length l)%nat ->
  swap d' (map f l) i j = map f (swap d l i j).
Proof. intros Hi Hj. unfold swap. now rewrite !(nth_map_default f l _ d d'), !upd_map by assumption. Qed.
Lemma Forall_removelast {A} (P : A -> Prop) (xs : list A) : Forall P xs -> Forall P (removelast xs).
Proof.
  induction xs as [|x xs IH]; intros H; simpl; auto. destruct xs; [constructor|].
  inversion H; subst. constructor; auto.
Qed.
Lemma firstn_app_exact {A} (a b : list A) : firstn (length a) (a ++ b) = a.
Proof. rewrite firstn_app, Nat.sub_diag, firstn_all. simpl. apply app_nil_r. Qed.
Lemma In_firstn {A} (l : list A) : forall n x, In x (firstn n l) -> In x l.
Proof.
  induction l as [|y t IH]; intros [|n] x H; simpl in *; try contradiction.
  destruct H as [H|H]; [left; auto|right; eauto].
Qed.
Lemma NoDup_firstn {A} (l : list A) : forall n, NoDup l -> NoDup (firstn n l).
Proof.
  induction l as [|x t IH]; intros [|n] H; simpl; try constructor.
  - inversion H; subst. intro Hin. apply In_firstn in Hin. contradiction.
  - inversion H; subst. auto.
Qed.
Lemma combine_map_map {A B C} (f : C -> A) (g : C -> B) s : combine (map f s) (map g s) = map (fun x => (f x, g x)) s.
Proof. induction s; simpl; congruence. Qed.
Lemma map_fst_combine {A B} : forall (a : list A) (b : list B), length a = length b -> map fst (combine a b) = a.
Proof. induction a; intros [|y b] H; simpl in *; try discriminate; auto. f_equal. auto. Qed.
Lemma map_snd_combine {A B} : forall (a : list A) (b : list B), length a = length b -> map snd (combine a b) = b.
Proof. induction a; intros [|y b] H; simpl in *; try discriminate; auto. f_equal. auto. Qed.
Lemma fold_left_map {A B C} (f : A -> C -> A) (g : B -> C) l a :
  fold_left f (map g l) a = fold_left (fun a b => f a (g b)) l a.
Proof. revert a; induction l as [|x t IH]; intro a; simpl; auto. Qed.
Lemma pairs_ind {A} (P : list A -> Prop) :
  P [] -> (forall a, P [a]) -> (forall a b t, P t -> P (a :: b :: t)) -> forall l, P l.
Proof. intros H0 H1 H2. fix IH 1. intros [|a [|b t]]; [exact H0|exact (H1 a)|exact (H2 a b t (IH t))]. Qed.

Lemma incl_existsb {A} (eqb : A -> A -> bool) (names l : list A) :
  (forall a b, eqb a b = true -> a = b) ->
  forallb (fun f => existsb (eqb f) l) names = true -> forall f, In f names -> In f l.
Proof.
  intros Heq H f Hf. rewrite forallb_forall in H. apply H, existsb_exists in Hf as (g & Hg & E).
  now rewrite (Heq _ _ E).
Qed.

(* index of first maximum (np.argmax) over Q *)
Fixpoint argmax_from (best : Q) (bi : nat) (i : nat) (l : list Q) : nat :=
  match l with
  | [] => bi
  | x :: t => if Qltb best x then argmax_from x i (S i) t else argmax_from best bi (S i) t
  end.
Definition argmax (l : list Q) : nat :=
  match l with [] => O | x :: t => argmax_from x O 1 t end.

Definition Zs_of_nats (l : list nat) : list Z := map Z.of_nat l.

Fixpoint bad_indices_from {A} (chk : A -> bool) (i : nat) (cs : list A) : list nat :=
  match cs with
  | [] => []
  | c :: t => if chk c then bad_indices_from chk (S i) t else i :: bad_indices_from chk (S i) t
  end.
Definition bad_indices {A} (chk : A -> bool) (cs : list A) := bad_indices_from chk O cs.

Definition Qlist_eqb (a b : list Q) : bool :=
  (length a =? length b)%nat && forallb (fun p => Qeq_bool (fst p) (snd p)) (combine a b).
Fixpoint Zlist_eqb (a b : list Z) : bool :=
  match a, b with
  | [], [] => true
  | x :: a', y :: b' => (x =? y)%Z && Zlist_eqb a' b'
  | _, _ => false
  end.
Fixpoint natlist_eqb (a b : list nat) : bool :=
  match a, b with
  | [], [] => true
  | x :: a', y :: b' => (x =? y)%nat && natlist_eqb a' b'
  | _, _ => false
  end.
