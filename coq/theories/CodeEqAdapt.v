(* CodeEqAdapt.v — the adaptive control-parameter code of SHADE / SHAGA / jDE (plain Python functions and methods of
   optimizers/_shade.py, _shaga.py, _jde.py), translated on every run (gen/GenCode.v: py_lehmer_mean_.., py_SHADE_..,
   py_SHAGA_.., py_jDE_..), is EQUAL to the hand-written models of Adapt.v.  Rational results that the source and the
   model compute by different but equivalent arithmetic (1 * x^2 against x * x, fold_left against fold_right) are
   related by ==, everything else by =.  At the end: SHADE._append_archive (append, then a row-wise Sattolo shuffle and
   truncation) against the model's append_archive. *)
From TF Require Import Py PyLemmas RandomPrimsProofs2 Adapt AdaptProofs CodeEqC11 CodeEqC15.
From TFG Require Import GenCode.
Open Scope Q_scope.

Lemma fold_left_Qplus_acc (l : list Q) (a : Q) : fold_left Qplus l a == a + qsum l.
Proof.
  revert a; induction l as [|x l IH]; intro a; cbn [fold_left qsum].
  - ring.
  - rewrite IH. ring.
Qed.
Lemma sumQ_qsum l : sumQ l == qsum l.
Proof. unfold sumQ. rewrite fold_left_Qplus_acc. ring. Qed.

Lemma combine_map_l {A B C} (g : A -> C) (a : list A) (b : list B) :
  combine (map g a) b = map (fun p => (g (fst p), snd p)) (combine a b).
Proof. revert b; induction a as [|x a IH]; intros [|y b]; cbn; [reflexivity..|]. now rewrite IH. Qed.

Lemma Qpower_2 x : Qpower x 2 == x * x.
Proof. reflexivity. Qed.
Lemma Qpower_1 x : Qpower x 1 == x.
Proof. reflexivity. Qed.

Lemma sum_weighted w x : sumQ (vmulv w x) == wsum w x.
Proof. rewrite sumQ_qsum. reflexivity. Qed.
Lemma vpow_1 x : vpow x 1 = x.
Proof. exact (map_id x). Qed.

(* sum(w * x**2) and sum(w * x**1) *)
Lemma sum_up w x : sumQ (vmulv w (vpow x 2)) == wsum w (sq x).
Proof. exact (sum_weighted w (sq x)). Qed.
Lemma sum_down w x : sumQ (vmulv w (vpow x 1)) == wsum w x.
Proof. rewrite vpow_1. apply sum_weighted. Qed.

Lemma Qeq_bool_compat a b c : a == b -> Qeq_bool a c = Qeq_bool b c.
Proof.
  intro H. apply eq_true_iff_eq. now rewrite !Qeq_bool_iff, H.
Qed.

(* lehmer_mean(x, weight=w) *)
Theorem code_lehmer_weighted x w : py_lehmer_mean_weighted x w == lehmer w x.
Proof.
  unfold py_lehmer_mean_weighted, lehmer. cbv zeta. unfold ZtoQ. change (inject_Z 0) with 0.
  rewrite (Qeq_bool_compat _ _ 0 (sum_down w x)).
  destruct (Qeq_bool (wsum w x) 0); [reflexivity|].
  rewrite sum_up, sum_down. reflexivity.
Qed.

Lemma smul_ones y : smul 1 y = vmulv (ones (length y)) y.
Proof.
  unfold smul, vmulv, vmap2, ones. induction y as [|a y IH]; [reflexivity|].
  cbn [length repeat combine map fst snd]. now rewrite IH.
Qed.

(* lehmer_mean(x): weight 1 *)
Theorem code_lehmer_unweighted x : py_lehmer_mean_unweighted x == lehmer (ones (length x)) x.
Proof.
  rewrite <- code_lehmer_weighted. unfold py_lehmer_mean_unweighted, py_lehmer_mean_weighted. cbv zeta.
  change (ZtoQ 1) with 1. rewrite !smul_ones. unfold vpow. rewrite !map_length. reflexivity.
Qed.

Lemma zlen_zero_nil {A} (l : list A) : (zlen l =? 0)%Z = match l with [] => true | _ => false end.
Proof. destruct l; reflexivity. Qed.

(* SHADE._update_u_F *)
Theorem code_SHADE_update_u_F u S : py_SHADE_update_u_F u S == shade_update_F u S.
Proof.
  unfold py_SHADE_update_u_F, shade_update_F. rewrite zlen_zero_nil. destruct S as [|a S]; [reflexivity|].
  cbn [negb]. apply code_lehmer_unweighted.
Qed.

Lemma weights_vdivs df : Forall2 Qeq (vdivs df (sumQ df)) (weights df).
Proof.
  unfold vdivs, weights. pose proof (sumQ_qsum df) as H. revert H. generalize (sumQ df), (qsum df). intros s t Hst.
  induction df as [|d df IH]; cbn [map]; constructor; [|exact IH]. now rewrite Hst.
Qed.
Lemma wsum_compat_l : forall w w' x, Forall2 Qeq w w' -> wsum w x == wsum w' x.
Proof.
  intros w w' x H; revert x; induction H as [|a b w w' Hab _ IH]; intro x; [reflexivity|].
  destruct x as [|c x]; [reflexivity|]. unfold wsum in *. cbn [combine map qsum fst snd]. rewrite Hab, IH. reflexivity.
Qed.

(* SHADE._update_u_CR *)
Theorem code_SHADE_update_u_CR u S df : py_SHADE_update_u_CR u S df == shade_update_CR u S df.
Proof.
  unfold py_SHADE_update_u_CR, shade_update_CR. rewrite zlen_zero_nil. destruct S as [|a S]; [reflexivity|].
  cbn [negb]. cbv zeta. unfold ZtoQ. change (inject_Z 0) with 0.
  rewrite (sumQ_qsum df). destruct (Qltb 0 (qsum df)); [|reflexivity].
  rewrite sum_weighted. apply wsum_compat_l. apply weights_vdivs.
Qed.

Lemma lehmer_compat_l w w' x : Forall2 Qeq w w' -> lehmer w x == lehmer w' x.
Proof.
  intro H. unfold lehmer. rewrite (Qeq_bool_compat _ _ 0 (wsum_compat_l w w' x H)).
  destruct (Qeq_bool (wsum w' x) 0); [reflexivity|].
  rewrite (wsum_compat_l w w' x H), (wsum_compat_l w w' (sq x) H). reflexivity.
Qed.

(* SHAGA._update_u *)
Theorem code_SHAGA_update_u u S df : py_SHAGA_update_u u S df == shaga_update u S df.
Proof.
  unfold py_SHAGA_update_u, shaga_update. rewrite zlen_zero_nil. destruct S as [|a S]; [reflexivity|].
  cbn [negb]. cbv zeta. unfold ZtoQ. change (inject_Z 0) with 0.
  rewrite (sumQ_qsum df). destruct (Qltb 0 (qsum df)); [|reflexivity].
  rewrite code_lehmer_weighted. apply lehmer_compat_l. apply weights_vdivs.
Qed.

Open Scope Z_scope.

(* SHAGA._randn: one value, clamped to [0, 1] *)
Theorem code_SHAGA_randn u scale ds : py_SHAGA_randn u scale ds = randn01 ds.
Proof. unfold py_SHAGA_randn. rewrite bind_popXs_one. apply bind_congr; reflexivity. Qed.

(* SHAGA._randc: redraw while value <= 0 or value > 5 / str_len *)
Lemma while_randc_hi hi : forall r v,
  while_f (length r) (fun value_ => Qle_bool value_ (ZtoQ 0) || Qltb hi value_)
    (fun _ => bind (Py.popXs 1) (fun r_2 => ret (getQ r_2 0))) v r = randc_hi hi (DX v :: r).
Proof.
  induction r as [|d r IH]; intro v; cbn [length while_f randc_hi]; change (ZtoQ 0) with 0%Q.
  - destruct (Qle_bool v 0 || Qltb hi v); reflexivity.
  - destruct (Qle_bool v 0 || Qltb hi v); [|reflexivity]. rewrite bind_assoc, bind_popXs_one.
    destruct d as [u|m w|x]; try reflexivity. exact (IH x).
Qed.

Theorem code_SHAGA_randc str_len u scale ds : py_SHAGA_randc str_len u scale ds = randc_hi (ZtoQ 5 / ZtoQ str_len)%Q ds.
Proof.
  unfold py_SHAGA_randc. cbv zeta. rewrite bind_popXs_one. destruct ds as [|[w|m w|v] r]; try reflexivity.
  rewrite bind_app. cbn [popX]. rewrite bind_ret_r. exact (while_randc_hi _ r v).
Qed.

Section Generate.
  Variables (fa fb : Q -> M Q) (first : list draw -> option (Q * list draw)).
  Hypothesis Hfa : forall u ds, fa u ds = first ds.
  Hypothesis Hfb : forall u ds, fb u ds = randn01 ds.
  Variables (H : Z) (HA HB : list Q).

  Definition generate_body (i : Z) (st : list Q * list Q) : M (list Q * list Q) :=
    let '(A_i, B_i) := st in
    bind (py_randint 0 H 1) (fun r_1 =>
      let r_i := getZ r_1 0 in
      let u_A := getQ HA r_i in
      let u_B := getQ HB r_i in
      bind (fa u_A) (fun r_2 =>
        let A_i := setA A_i i r_2 in
        bind (fb u_B) (fun r_3 =>
          let B_i := setA B_i i r_3 in
          ret (A_i, B_i)))).

  Lemma setA_app_mid (d : list Q) x zs a : setA (d ++ x :: zs) (zlen d) a = (d ++ [a]) ++ zs.
  Proof. unfold zlen. rewrite setA_nat, upd_app_r. cbn [upd]. now rewrite <- app_assoc. Qed.

  Lemma gen_loop : forall k dA dB ds, length dA = length dB ->
    for_nat k (zlen dA) generate_body (dA ++ repeat 0%Q k, dB ++ repeat 0%Q k) ds
    = bind (gen_pairs first k H) (fun l => ret (dA ++ map (fun t => snd (fst t)) l, dB ++ map snd l)) ds.
  Proof.
    induction k as [|k IH]; intros dA dB ds Hl.
    - reflexivity.
    - cbn [for_nat gen_pairs repeat]. unfold generate_body at 1. cbv zeta. rewrite !bind_assoc.
      apply bind_congr; [exact (code_randint 0 H 1 ds)|intros r ds1 _].
      rewrite !bind_assoc. apply bind_congr; [apply Hfa|intros a ds2 _].
      rewrite !bind_assoc. apply bind_congr; [apply Hfb|intros b ds3 _].
      rewrite bind_assoc, bind_app, ret_app, (setA_app_mid dA).
      replace (zlen dA) with (zlen dB) at 2 by (unfold zlen; now rewrite Hl). rewrite (setA_app_mid dB).
      replace (zlen dA + 1) with (zlen (dA ++ [a])) by (unfold zlen; rewrite app_length; cbn [length]; lia).
      rewrite IH by (rewrite !app_length; cbn [length]; lia).
      apply bind_congr; [reflexivity|intros l ds4 _]. rewrite bind_app, !ret_app. cbn [map fst snd]. now rewrite <- !app_assoc.
  Qed.
  (* the whole method: both arrays start as zeros and are filled front to back *)
  Lemma gen_range (pop : nat) ds :
    bind (for_range 0 (Z.of_nat pop) (zerosQ (Z.of_nat pop), zerosQ (Z.of_nat pop)) generate_body) (fun '(a, b) => ret (a, b)) ds
    = bind (gen_pairs first pop H) (fun l => ret (map (fun t => snd (fst t)) l, map snd l)) ds.
  Proof.
    unfold for_range, zerosQ. rewrite Z.sub_0_r, Nat2Z.id.
    etransitivity; [apply bind_congr; [exact (gen_loop pop [] [] ds eq_refl)|reflexivity]|].
    rewrite bind_assoc. apply bind_congr; reflexivity.
  Qed.
End Generate.

Definition pairs_out (l : list (Z * Q * Q)) : list Q * list Q := (map (fun t => snd (fst t)) l, map snd l).

(* SHADE._generate_F_CR *)
Theorem code_SHADE_generate_F_CR (pop : nat) H HF HCR ds :
  py_SHADE_generate_F_CR (Z.of_nat pop) H HF HCR ds = bind (shade_generate pop H) (fun l => ret (pairs_out l)) ds.
Proof. exact (gen_range py_randc01 py_randn01 randc01 code_randc01 code_randn01 H HF HCR pop ds). Qed.

(* SHAGA._generate_MR_CR: MR from the truncated Cauchy sampler with bound 5 / str_len *)
Theorem code_SHAGA_generate_MR_CR (pop : nat) H HMR HCR str_len ds :
  py_SHAGA_generate_MR_CR (Z.of_nat pop) H HMR HCR str_len ds
  = bind (shaga_generate (ZtoQ 5 / ZtoQ str_len)%Q pop H) (fun l => ret (pairs_out l)) ds.
Proof.
  exact (gen_range (fun u => py_SHAGA_randc str_len u ((1 # 10) / ZtoQ str_len)%Q) (fun u => py_SHAGA_randn u (1 # 10)%Q)
           (randc_hi (ZtoQ 5 / ZtoQ str_len)%Q) (fun u ds => code_SHAGA_randc str_len u _ ds) (fun u ds => code_SHAGA_randn u _ ds)
           H HMR HCR pop ds).
Qed.

Lemma popXs_nat_model n : popXs_nat n = Adapt.popXs n.
Proof. induction n as [|n IH]; cbn [popXs_nat Adapt.popXs]; [reflexivity|]. now rewrite IH. Qed.

Lemma py_uniform_popXs lo hi (n : nat) ds : py_uniform lo hi (Z.of_nat n) ds = Adapt.popXs n ds.
Proof.
  unfold py_uniform, Py.popXs. now rewrite bind_ret_r, Nat2Z.id, popXs_nat_model.
Qed.

Lemma mask_scatter_scatter (g : Q -> Q) : forall mask old vs, mask_scatter mask old (map g vs) = scatter g mask old vs.
Proof.
  induction mask as [|m mask IH]; intros old vs; [destruct old; reflexivity|].
  destruct old as [|o old]; [destruct m; reflexivity|].
  destruct m; cbn [mask_scatter scatter].
  - destruct vs as [|v vs]; cbn [map]; [reflexivity|]. now rewrite IH.
  - now rewrite IH.
Qed.

Section JDE.
  Variables (old : list Q) (t : Q).
  Lemma jde_shape (g : Q -> Q) (post : list Q -> list Q) ds : (forall vs, post vs = map g vs) ->
    bind (py_uniform (0 # 1) (1 # 1) (zlen old)) (fun r_1 =>
      let mask := ltmaskQ r_1 t in
      bind (py_uniform (0 # 1) (1 # 1) (countB mask)) (fun r_2 =>
        let random_values := r_2 in
        let out := mask_scatter mask old (post random_values) in
        ret out)) ds
    = jde_mutate g t old ds.
  Proof.
    intro Hpost. unfold jde_mutate.
    apply bind_congr; [apply py_uniform_popXs|intros us ds1 _]. apply bind_congr; [apply py_uniform_popXs|intros vs ds2 _].
    cbv zeta. now rewrite Hpost, mask_scatter_scatter.
  Qed.
End JDE.

(* jDE._get_mutate_F: F_min + value * F_max where the uniform mask value is below t_F (the product is computed as F_max * value
   by numpy broadcasting of the scalar: the same rational) *)
Theorem code_jDE_get_mutate_F F tF Fmin Fmax ds :
  py_jDE_get_mutate_F F (zlen F) tF Fmin Fmax ds = jde_mutate (fun r => Fmin + Fmax * r)%Q tF F ds.
Proof.
  unfold py_jDE_get_mutate_F. cbv zeta.
  apply (jde_shape F tF (fun r => Fmin + Fmax * r)%Q (fun vs => sadd Fmin (smul Fmax vs)) ds).
  intro vs. unfold sadd, smul. now rewrite map_map.
Qed.

Theorem code_jDE_get_mutate_CR CR tCR ds :
  py_jDE_get_mutate_CR CR (zlen CR) tCR ds = jde_mutate_CR tCR CR ds.
Proof.
  unfold py_jDE_get_mutate_CR, jde_mutate_CR. cbv zeta.
  apply (jde_shape CR tCR (fun r => r) (fun vs => vs) ds).
  intro vs. now rewrite map_id.
Qed.

(* what the source's own definitions guarantee (C15) *)
Open Scope Q_scope.

Theorem src_SHADE_update_u_F_range u S : 0 < u /\ u <= 1 -> Forall (fun a => 0 < a /\ a <= 1) S ->
  0 < py_SHADE_update_u_F u S /\ py_SHADE_update_u_F u S <= 1.
Proof. intros Hu HS. rewrite code_SHADE_update_u_F. now apply shade_update_F_range. Qed.

Theorem src_SHADE_update_u_CR_range u S df : 0 <= u /\ u <= 1 -> Forall (fun a => 0 <= a /\ a <= 1) S ->
  Forall (fun d => 0 <= d) df -> length df = length S ->
  0 <= py_SHADE_update_u_CR u S df /\ py_SHADE_update_u_CR u S df <= 1.
Proof. intros. rewrite code_SHADE_update_u_CR. now apply shade_update_CR_range. Qed.

Theorem src_SHAGA_update_u_range_MR hi u S df : 0 < u /\ u <= hi ->
  (exists lo, 0 < lo /\ Forall (fun a => lo <= a /\ a <= hi) S) ->
  Forall (fun d => 0 <= d) df -> length df = length S ->
  0 < py_SHAGA_update_u u S df /\ py_SHAGA_update_u u S df <= hi.
Proof. intros. rewrite code_SHAGA_update_u. now apply shaga_update_range_MR. Qed.

Theorem src_SHAGA_update_u_range_CR u S df : 0 <= u /\ u <= 1 -> Forall (fun a => 0 <= a /\ a <= 1) S ->
  Forall (fun d => 0 <= d) df -> length df = length S ->
  0 <= py_SHAGA_update_u u S df /\ py_SHAGA_update_u u S df <= 1.
Proof. intros. rewrite code_SHAGA_update_u. now apply shaga_update_range_CR. Qed.

(* no success: the next memory cell is a copy of the current one, in the source's own functions *)
Theorem src_no_success_copy u df : py_SHADE_update_u_F u [] = u /\ py_SHADE_update_u_CR u [] df = u /\ py_SHAGA_update_u u [] df = u.
Proof. repeat split; reflexivity. Qed.

(* lehmer_mean never divides by zero: a zero denominator yields 0 *)
Theorem src_lehmer_zero_denominator x w : sumQ (vmulv w (vpow x 1)) == 0 -> py_lehmer_mean_weighted x w = 0.
Proof.
  intro Hz. unfold py_lehmer_mean_weighted. cbv zeta. unfold ZtoQ. change (inject_Z 0) with 0.
  apply Qeq_bool_iff in Hz. now rewrite Hz.
Qed.

(* SHADE._generate_F_CR / SHAGA._generate_MR_CR: one pair per individual, every value in its range *)
Lemma pairs_out_ranges (gen : M (list (Z * Q * Q))) pop H hi ds Fs CRs ds' :
  (forall l ds1, gen ds = Some (l, ds1) -> length l = pop /\ Forall (pair_ok H hi) l) ->
  bind gen (fun l => ret (pairs_out l)) ds = Some ((Fs, CRs), ds') ->
  length Fs = pop /\ length CRs = pop /\ Forall (fun a => 0 < a /\ a <= hi) Fs /\ Forall (fun a => 0 <= a /\ a <= 1) CRs.
Proof.
  intros Hr. rewrite bind_app. destruct (gen ds) as [[l ds1]|]; [|discriminate]. destruct (Hr l ds1 eq_refl) as [Hlen Hok].
  rewrite ret_app. intro X. injection X as <- <- _. rewrite !map_length.
  repeat split; auto; apply Forall_map; (eapply Forall_impl; [|exact Hok]); intros t Ht; apply Ht.
Qed.

Theorem src_SHADE_generate_ranges (pop : nat) H HF HCR ds Fs CRs ds' : (0 < H)%Z -> valid_draws ds ->
  py_SHADE_generate_F_CR (Z.of_nat pop) H HF HCR ds = Some ((Fs, CRs), ds') ->
  length Fs = pop /\ length CRs = pop /\ Forall (fun a => 0 < a /\ a <= 1) Fs /\ Forall (fun a => 0 <= a /\ a <= 1) CRs.
Proof.
  intros HH Hv. rewrite code_SHADE_generate_F_CR. apply (pairs_out_ranges _ pop H). intros l ds1. now apply shade_ranges.
Qed.

Theorem src_SHAGA_generate_ranges (pop : nat) H HMR HCR str_len ds MRs CRs ds' : (0 < H)%Z -> valid_draws ds ->
  py_SHAGA_generate_MR_CR (Z.of_nat pop) H HMR HCR str_len ds = Some ((MRs, CRs), ds') ->
  length MRs = pop /\ length CRs = pop /\ Forall (fun a => 0 < a /\ a <= ZtoQ 5 / ZtoQ str_len) MRs /\ Forall (fun a => 0 <= a /\ a <= 1) CRs.
Proof.
  intros HH Hv. rewrite code_SHAGA_generate_MR_CR. apply (pairs_out_ranges _ pop H). intros l ds1. now apply shaga_ranges.
Qed.

Open Scope Z_scope.
Lemma for_down_sattolo_rows : forall (i : nat) (arr : list (list Q)) ds, valid_draws ds ->
  for_down_nat i (Z.of_nat i) (fun i0 shuffled_arr =>
      bind popU (fun r_1 =>
        let j := Qfloor' (r_1 * ZtoQ i0)%Q in
        let v_2 := getR shuffled_arr j in
        let v_3 := getR shuffled_arr i0 in
        let shuffled_arr := setA shuffled_arr i0 v_2 in
        let shuffled_arr := setA shuffled_arr j v_3 in
        ret shuffled_arr)) arr ds
  = sattolo_loop [] i arr ds.
Proof.
  induction i as [|i IH]; intros arr ds Hv; [reflexivity|].
  cbn [for_down_nat sattolo_loop]. unfold bind at 1. unfold bind at 1. unfold bind at 2. unfold popU.
  destruct ds as [|[u|m v|x] ds]; try reflexivity.
  inversion Hv as [|? ? Hd Hv']; subst. cbn in Hd. destruct Hd as [Hu0 Hu1].
  cbv zeta. unfold ret at 1.
  assert (Hj : 0 <= Qfloor' (u * ZtoQ (Z.of_nat (Datatypes.S i)))).
  { unfold ZtoQ. apply (Qfloor'_bounds u (Z.of_nat (Datatypes.S i)) Hu0 Hu1). lia. }
  rewrite (getR_nonneg _ _ Hj), getR_nat, setA_nat, (setA_nonneg _ _ _ Hj).
  replace (Z.of_nat (Datatypes.S i) - 1) with (Z.of_nat i) by lia.
  rewrite IH by exact Hv'. unfold swap, ZtoQ. reflexivity.
Qed.

Theorem code_sattolo_shuffle_2d (arr : list (list Q)) ds : valid_draws ds ->
  py_sattolo_shuffle_2d arr ds = sattolo [] arr ds.
Proof.
  intro Hv. unfold py_sattolo_shuffle_2d, sattolo. cbv zeta. rewrite bind_ret_r. unfold for_down.
  destruct arr as [|a arr]; [reflexivity|].
  replace (zlen (a :: arr) - 1 - 0) with (Z.of_nat (length arr)) by (unfold zlen; simpl length; lia).
  replace (zlen (a :: arr) - 1) with (Z.of_nat (length arr)) by (unfold zlen; simpl length; lia).
  rewrite Nat2Z.id. replace (length (a :: arr) - 1)%nat with (length arr) by (simpl length; lia). exact (for_down_sattolo_rows (length arr) (a :: arr) ds Hv).
Qed.

(* SHADE._append_archive: append the replaced parents; when longer than pop_size: Sattolo shuffle of the rows, keep the first pop_size *)
Theorem code_SHADE_append_archive (pop_size : nat) (archive worse : list (list Q)) ds : valid_draws ds ->
  py_SHADE_append_archive (Z.of_nat pop_size) archive worse ds = append_archive [] pop_size archive worse ds.
Proof.
  intro Hv. unfold py_SHADE_append_archive, append_archive. cbv zeta. rewrite bind_ret_r.
  assert (Hc : (zlen (archive ++ worse) >? Z.of_nat pop_size) = (pop_size <? length (archive ++ worse))%nat).
  { unfold zlen. destruct (Nat.ltb_spec pop_size (length (archive ++ worse))); [apply Z.gtb_lt|rewrite Z.gtb_ltb; apply Z.ltb_ge]; lia. }
  rewrite Hc. destruct (pop_size <? length (archive ++ worse))%nat; [|reflexivity].
  apply bind_congr; [now apply code_sattolo_shuffle_2d|intros s ds1 _]. unfold sliceTo. now rewrite pyidx_nat.
Qed.

(* hence (AdaptProofs.archive_spec): the archive produced by the source's own _append_archive never exceeds pop_size and holds only
   old archive members and replaced parents *)
Theorem src_SHADE_append_archive (pop_size : nat) (archive worse : list (list Q)) ds a ds' : valid_draws ds ->
  py_SHADE_append_archive (Z.of_nat pop_size) archive worse ds = Some (a, ds') -> (length archive <= pop_size)%nat ->
  (length a <= pop_size)%nat /\ (forall x, In x a -> In x archive \/ In x worse).
Proof.
  intros Hv. rewrite code_SHADE_append_archive by exact Hv. intros H Hl.
  exact (archive_spec [] pop_size archive worse ds a ds' Hv H Hl).
Qed.
