(* SplitProofs.v — proofs about the models in Split.v / SplitFloat.v (C16). *)
From Coq Require Import List ZArith Bool Lia Uint63 PrimFloat.
From TF Require Import Split SplitFloat.
Import ListNotations.
Open Scope Z_scope.

Lemma get_n_jobs_zero cpu pop : get_n_jobs cpu pop 0 = None.
Proof. reflexivity. Qed.

(* positive requests: the smaller of the request and the population size; negative requests:
   joblib's convention cpu + 1 + n (at least 1), capped in the same way *)
Lemma get_n_jobs_value cpu pop n : n <> 0 ->
  get_n_jobs cpu pop n =
  Some (Z.min pop (if n <? 0 then Z.max (cpu + 1 + n) 1 else n)).
Proof.
  intros Hn. unfold get_n_jobs.
  destruct (Z.ltb_spec n 0); [f_equal; lia|].
  destruct (Z.eqb_spec n 0); [contradiction|].
  destruct (Z.ltb_spec pop n); f_equal; lia.
Qed.

Lemma get_n_jobs_range cpu pop n : 1 <= pop -> n <> 0 ->
  exists j, get_n_jobs cpu pop n = Some j /\ 1 <= j <= pop.
Proof.
  intros Hp Hn. rewrite get_n_jobs_value by exact Hn.
  eexists; split; [reflexivity|]. destruct (Z.ltb_spec n 0); lia.
Qed.

Lemma get_n_jobs_orig_agrees cpu pop n j :
  get_n_jobs_orig cpu pop n = Some j -> j <= pop -> get_n_jobs cpu pop n = Some j.
Proof.
  unfold get_n_jobs_orig, get_n_jobs.
  destruct (n <? 0); [|auto].
  intros [= <-] Hj. f_equal. lia.
Qed.

Section Lists.
  Context {A : Type}.
  Local Open Scope nat_scope.

  Lemma firstn_add (p q : nat) (l : list A) :
    firstn (p + q) l = firstn p l ++ firstn q (skipn p l).
  Proof.
    revert l; induction p as [|p IH]; intros l; simpl; auto.
    destruct l as [|x l]; simpl.
    - now rewrite firstn_nil.
    - f_equal; apply IH.
  Qed.

  Lemma skipn_add (p q : nat) (l : list A) : skipn q (skipn p l) = skipn (p + q) l.
  Proof.
    revert l; induction p as [|p IH]; intros l; simpl; auto.
    destruct l as [|x l]; [now rewrite skipn_nil | apply IH].
  Qed.

  Lemma skipn_cons_nth (d : A) i : forall l, i < length l -> skipn i l = nth i l d :: skipn (S i) l.
  Proof. induction i as [|i IH]; intros [|x l] H; simpl in *; try lia; [reflexivity | apply IH; lia]. Qed.

  Lemma nth_firstn (d : A) n : forall l i, i < n -> nth i (firstn n l) d = nth i l d.
  Proof. induction n as [|n IH]; intros [|x l] [|i] H; simpl; try lia; auto. apply IH. lia. Qed.

  Lemma slice_app a b c (xs : list A) :
    a <= b -> b <= c -> slice a b xs ++ slice b c xs = slice a c xs.
  Proof.
    intros H1 H2. unfold slice.
    replace (c - a) with ((b - a) + (c - b)) by lia.
    rewrite firstn_add. f_equal. f_equal.
    rewrite skipn_add. f_equal; lia.
  Qed.

  Lemma slice_full (xs : list A) : slice 0 (length xs) xs = xs.
  Proof. unfold slice. simpl. rewrite Nat.sub_0_r. apply firstn_all. Qed.

  Lemma slice_empty a (xs : list A) : slice a a xs = [].
  Proof. unfold slice. now rewrite Nat.sub_diag. Qed.

  Lemma slice_length a b (xs : list A) :
    b <= length xs -> length (slice a b xs) = b - a.
  Proof. intros H. unfold slice. rewrite firstn_length, skipn_length. lia. Qed.

  Lemma slices_map_seq (d : nat -> nat) m : forall a (xs : list A),
    slices (map d (seq a (S m))) xs = map (fun k => slice (d k) (d (S k)) xs) (seq a m).
  Proof.
    induction m as [|m IH]; intros a xs; [reflexivity|].
    change (seq a (S (S m))) with (a :: seq (S a) (S m)).
    change (seq a (S m)) with (a :: seq (S a) m).
    rewrite !map_cons, <- IH.
    change (seq (S a) (S m)) with (S a :: seq (S (S a)) m).
    rewrite map_cons. reflexivity.
  Qed.

  Lemma concat_slices (d : nat -> nat) (xs : list A) a m :
    (forall k, a <= k < a + m -> d k <= d (S k)) ->
    d a <= d (a + m) /\
    concat (map (fun k => slice (d k) (d (S k)) xs) (seq a m)) = slice (d a) (d (a + m)) xs.
  Proof.
    induction m as [|m IH]; intros Hm.
    - rewrite Nat.add_0_r. simpl. now rewrite slice_empty.
    - destruct IH as [IH1 IH2]; [intros; apply Hm; lia|].
      assert (Hs : d (a + m) <= d (S (a + m))) by (apply Hm; lia).
      rewrite Nat.add_succ_r. split; [lia|].
      rewrite seq_S, map_app, concat_app, IH2. simpl. rewrite app_nil_r.
      now apply slice_app.
  Qed.
  (* the pieces between strictly increasing cut positions 0 = d 0 < ... < d n = length xs *)
  Lemma chunks_of_cuts (d : nat -> nat) n (xs : list A) :
    d 0 = 0 -> d n = length xs -> (forall k, k < n -> d k < d (S k) <= length xs) ->
    let chunks := map (fun k => slice (d k) (d (S k)) xs) (seq 0 n) in
    length chunks = n /\
    (forall k, k < n -> nth k chunks [] = slice (d k) (d (S k)) xs) /\
    Forall (fun ch => ch <> []) chunks /\
    concat chunks = xs.
  Proof.
    intros H0 Hn Hd chunks. unfold chunks. split; [|split; [|split]].
    - now rewrite map_length, seq_length.
    - intros k Hk.
      rewrite (nth_indep _ [] (slice (d 0) (d 1) xs)) by (rewrite map_length, seq_length; lia).
      rewrite (map_nth (fun k => slice (d k) (d (S k)) xs)), seq_nth by lia. reflexivity.
    - apply Forall_forall. intros ch Hin.
      apply in_map_iff in Hin. destruct Hin as (k & <- & Hk). apply in_seq in Hk.
      intro E. apply (f_equal (@length A)) in E. rewrite slice_length in E by apply Hd, Hk.
      specialize (Hd k ltac:(lia)). simpl in E. lia.
    - destruct (concat_slices d xs 0 n) as [_ Hc]; [intros k Hk; specialize (Hd k); lia|].
      rewrite Hc. simpl. rewrite H0, Hn. apply slice_full.
  Qed.
End Lists.

Definition dnat (c : Z -> Z) (k : nat) : nat := Z.to_nat (c (Z.of_nat k)).

Lemma Zseq_0 len : Zseq 0 len = map Z.of_nat (seq 0 len).
Proof. unfold Zseq. apply map_ext. intros; lia. Qed.

Lemma map_cut_points c n :
  map Z.to_nat (cut_points c n) = map (dnat c) (seq 0 (Z.to_nat n + 1)).
Proof. unfold cut_points. rewrite Zseq_0, !map_map. reflexivity. Qed.

(* _split_population on the points of a cut function with c 0 = 0 and c n = len(population):
   chunk k is population[c k : c (k+1)] *)
Lemma split_cut_points {A} (c : Z -> Z) (n : Z) (xs : list A) :
  1 <= n -> c 0 = 0 -> Z.to_nat (c n) = length xs ->
  split_population (cut_points c n) xs =
  map (fun k => slice (dnat c k) (dnat c (S k)) xs) (seq 0 (Z.to_nat n)).
Proof.
  intros Hn H0 Hlast.
  rewrite <- slices_map_seq.
  unfold split_population, np_split, cut_points. rewrite Zseq_0.
  destruct (Z.to_nat n) as [|N] eqn:EN; [lia|].
  rewrite Nat.add_1_r.
  rewrite (seq_S (S N) 0). rewrite <- cons_seq.
  rewrite !map_app, !map_cons. simpl map.
  unfold inner. simpl tl. rewrite removelast_last.
  rewrite <- app_comm_cons. f_equal.
  assert (E0 : dnat c 0 = 0%nat) by (unfold dnat; simpl; now rewrite H0).
  assert (El : dnat c (0 + S N) = length xs).
  { unfold dnat. rewrite <- Hlast. f_equal. f_equal. lia. }
  rewrite E0, El, !map_map. reflexivity.
Qed.

Lemma envelope_facts pop n c : 1 <= n <= pop -> Envelope pop n c ->
  forall k, 0 <= k <= n ->
    let q := k * pop / n in
    n * q <= k * pop < n * q + n /\
    (c k = q \/ (c k = q - 1 /\ k * pop = n * q /\ n < pop /\ 0 < k < n)).
Proof.
  intros Hn (H0 & Hl & He) k Hk q.
  assert (Hdm : k * pop = n * q + (k * pop) mod n) by (apply Z.div_mod; lia).
  assert (Hmb : 0 <= (k * pop) mod n < n) by (apply Z.mod_pos_bound; lia).
  split; [lia|].
  destruct (Z.eq_dec k 0) as [->|Hk0].
  { left. subst q. rewrite H0. reflexivity. }
  destruct (Z.eq_dec k n) as [->|Hkn].
  { left. subst q. rewrite Hl. rewrite Z.mul_comm. symmetry. apply Z.div_mul. lia. }
  destruct (He k ltac:(lia)) as [E | (E1 & E2 & E3)]; [left; exact E|].
  right. repeat split; try lia.
  destruct (Z.eq_dec n pop) as [->|]; [|lia].
  exfalso. apply E2. apply Z.mod_same. lia.
Qed.

Lemma envelope_increasing pop n c : 1 <= n <= pop -> Envelope pop n c ->
  forall k, 0 <= k < n -> c k < c (k + 1).
Proof.
  intros Hn He k Hk.
  destruct (envelope_facts pop n c Hn He k ltac:(lia)) as [B1 C1].
  destruct (envelope_facts pop n c Hn He (k + 1) ltac:(lia)) as [B2 C2].
  cbv zeta in *.
  set (q1 := k * pop / n) in *. set (q2 := (k + 1) * pop / n) in *.
  assert (E : (k + 1) * pop = k * pop + pop) by ring.
  rewrite E in *. clear E.
  set (kp := k * pop) in *.
  assert (Q12 : q1 < q2).
  { apply (Z.mul_lt_mono_pos_l n); lia. }
  destruct C1 as [-> | (-> & _)]; destruct C2 as [-> | (-> & E & Hlt & _)]; try lia.
  assert (n * (q1 + 1) < n * q2) by lia.
  assert (q1 + 1 < q2) by (apply (Z.mul_lt_mono_pos_l n); lia).
  lia.
Qed.

Lemma increasing_gap (c : Z -> Z) lo hi : (forall k, lo <= k < hi -> c k < c (k + 1)) ->
  forall i d, lo <= i -> i + Z.of_nat d <= hi -> c i + Z.of_nat d <= c (i + Z.of_nat d).
Proof.
  intros Hc i d Hi. induction d as [|d IH]; intros Hd.
  - simpl. rewrite !Z.add_0_r. lia.
  - rewrite Nat2Z.inj_succ, <- Z.add_1_r, !Z.add_assoc in *. specialize (Hc (i + Z.of_nat d)). lia.
Qed.

Lemma envelope_range pop n c : 1 <= n <= pop -> Envelope pop n c ->
  forall k, 0 <= k <= n -> 0 <= c k <= pop.
Proof.
  intros Hn He k Hk. pose proof (increasing_gap c 0 n (envelope_increasing pop n c Hn He)) as G.
  destruct He as (H0 & Hl & _).
  pose proof (G 0 (Z.to_nat k) ltac:(lia) ltac:(lia)) as G1.
  pose proof (G k (Z.to_nat (n - k)) ltac:(lia) ltac:(lia)) as G2.
  rewrite Z.add_0_l, Z2Nat.id in G1 by lia.
  replace (k + Z.of_nat (Z.to_nat (n - k))) with n in G2 by lia. lia.
Qed.

(* the exact cut function lies in the envelope (so the theorems are about a non-empty class) *)
Lemma cut_floor_envelope pop n : 1 <= n -> Envelope pop n (cut_floor pop n).
Proof.
  intros Hn. unfold Envelope, cut_floor. repeat split.
  - rewrite Z.mul_comm. apply Z.div_mul. lia.
  - intros; now left.
Qed.

Theorem chunks_spec : forall (A : Type) (pop n : Z) (c : Z -> Z) (xs : list A),
  1 <= n <= pop -> Envelope pop n c -> Z.of_nat (length xs) = pop ->
  let chunks := split_population (cut_points c n) xs in
  (forall k, 0 <= k < n -> 0 <= c k < c (k + 1) /\ c (k + 1) <= pop) /\
  length chunks = Z.to_nat n /\
  (forall k, (k < Z.to_nat n)%nat ->
     nth k chunks [] = slice (Z.to_nat (c (Z.of_nat k))) (Z.to_nat (c (Z.of_nat k + 1))) xs /\
     Z.of_nat (length (nth k chunks [])) = c (Z.of_nat k + 1) - c (Z.of_nat k)) /\
  Forall (fun ch => ch <> []) chunks /\
  concat chunks = xs.
Proof.
  intros A pop n c xs Hn He Hlen chunks.
  pose proof (envelope_increasing pop n c Hn He) as Hinc.
  pose proof (envelope_range pop n c Hn He) as Hrng.
  destruct He as (H0 & Hl & _).
  assert (Hd : forall k, (k < Z.to_nat n)%nat ->
             (dnat c k < dnat c (S k) <= length xs)%nat).
  { intros k Hk. unfold dnat. rewrite Nat2Z.inj_succ, <- Z.add_1_r.
    pose proof (Hinc (Z.of_nat k) ltac:(lia)).
    pose proof (Hrng (Z.of_nat k) ltac:(lia)).
    pose proof (Hrng (Z.of_nat k + 1) ltac:(lia)). lia. }
  destruct (chunks_of_cuts (dnat c) (Z.to_nat n) xs) as (L & N & F & C); [| |exact Hd|].
  { unfold dnat. simpl. now rewrite H0. }
  { unfold dnat. rewrite Z2Nat.id, Hl by lia. lia. }
  unfold chunks. rewrite split_cut_points by lia.
  split; [|split; [exact L | split; [| split; [exact F | exact C]]]].
  - intros k Hk. pose proof (Hinc k Hk). pose proof (Hrng k ltac:(lia)).
    pose proof (Hrng (k + 1) ltac:(lia)). lia.
  - intros k Hk. rewrite (N k Hk). specialize (Hd k Hk).
    unfold dnat in *. rewrite Nat2Z.inj_succ, <- Z.add_1_r in *. split; [reflexivity|].
    rewrite slice_length by lia.
    pose proof (Hrng (Z.of_nat k) ltac:(lia)). lia.
Qed.

Definition rowwise {X Y} (f : list X -> list Y) : Prop := forall a b, f (a ++ b) = f a ++ f b.
Definition rowcount {X Y} (f : list X -> list Y) : Prop := forall a, length (f a) = length a.

Lemma rowwise_nil {X Y} (f : list X -> list Y) : rowwise f -> f [] = [].
Proof.
  intros H. specialize (H [] []). simpl in H.
  apply (f_equal (@length Y)) in H. rewrite app_length in H.
  destruct (f []); [reflexivity | simpl in H; lia].
Qed.

Lemma rowwise_concat {X Y} (f : list X -> list Y) : rowwise f ->
  forall ls, concat (map f ls) = f (concat ls).
Proof.
  intros H ls. induction ls as [|l ls IH]; simpl.
  - symmetry. now apply rowwise_nil.
  - now rewrite H, IH.
Qed.

Section ParSer.
  Variables G P F : Type.
  Variable parallel : forall X Y : Type, (X -> Y) -> list X -> list Y.
  (* joblib's contract: the list of results is in submission order *)
  Hypothesis parallel_in_order : forall X Y (f : X -> Y) l, parallel X Y f l = map f l.

  Variables pop n : Z.
  Variable c : Z -> Z.
  Hypothesis Hn : 1 <= n <= pop.
  Hypothesis Henv : Envelope pop n c.

  Lemma par_chunks_is_serial {X Y} (f : list X -> list Y) (xs : list X) :
    rowwise f -> Z.of_nat (length xs) = pop ->
    concat (parallel _ _ f (split_population (cut_points c n) xs)) = f xs.
  Proof.
    intros Hf Hlen. rewrite parallel_in_order, rowwise_concat by exact Hf.
    f_equal. apply (chunks_spec X pop n c xs Hn Henv Hlen).
  Qed.

  Variable g2p : option (list G -> list P).
  Variable coerce : list G -> list P.
  Variable fit : list P -> list F.
  Hypothesis g2p_rowwise : forall f, g2p = Some f -> rowwise f /\ rowcount f.
  Hypothesis coerce_rowcount : g2p = None -> rowcount coerce.
  Hypothesis fit_rowwise : rowwise fit.

  Lemma get_phenotype_par_ser lin1 pop_g : Z.of_nat (length pop_g) = pop ->
    get_phenotype G P parallel g2p coerce n (cut_points c n) pop_g =
    get_phenotype G P parallel g2p coerce 1 lin1 pop_g.
  Proof.
    intros Hlen. unfold get_phenotype. destruct g2p as [f|] eqn:E; [|reflexivity].
    destruct (g2p_rowwise f eq_refl) as [Hf _].
    destruct (1 <? n); [|reflexivity]. simpl. now apply par_chunks_is_serial.
  Qed.

  Lemma get_phenotype_ser_length lin1 pop_g : Z.of_nat (length pop_g) = pop ->
    Z.of_nat (length (get_phenotype G P parallel g2p coerce 1 lin1 pop_g)) = pop.
  Proof.
    intros Hlen. unfold get_phenotype. destruct g2p as [f|] eqn:E; simpl.
    - destruct (g2p_rowwise f eq_refl) as [_ Hc]. now rewrite Hc.
    - now rewrite (coerce_rowcount eq_refl).
  Qed.

  Lemma get_fitness_par_ser lin1 calls pop_ph : Z.of_nat (length pop_ph) = pop ->
    get_fitness P F parallel fit n (cut_points c n) calls pop_ph =
    get_fitness P F parallel fit 1 lin1 calls pop_ph.
  Proof.
    intros Hlen. unfold get_fitness.
    destruct (1 <? n); [|reflexivity]. simpl.
    now rewrite par_chunks_is_serial.
  Qed.

  Theorem evaluate_par_ser lin1 calls pop_g : Z.of_nat (length pop_g) = pop ->
    evaluate G P F parallel g2p coerce fit n (cut_points c n) calls pop_g =
    evaluate G P F parallel g2p coerce fit 1 lin1 calls pop_g.
  Proof.
    intros Hlen. unfold evaluate.
    rewrite (get_phenotype_par_ser lin1) by exact Hlen.
    rewrite (get_fitness_par_ser lin1) by (now apply get_phenotype_ser_length).
    reflexivity.
  Qed.

  (* the serial evaluation is one call of each user function on the whole population *)
  Lemma evaluate_serial lin1 calls pop_g :
    evaluate G P F parallel g2p coerce fit 1 lin1 calls pop_g =
    let ph := match g2p with Some f => f pop_g | None => coerce pop_g end in
    (ph, fit ph, calls + Z.of_nat (length (fit ph))).
  Proof. unfold evaluate, get_fitness, get_phenotype. simpl. destruct g2p; reflexivity. Qed.

  Variable S : Type.
  Variable next : S -> list G.
  Variable update : S -> list G -> list P -> list F -> S.
  Hypothesis next_size : forall st, Z.of_nat (length (next st)) = pop.

  Theorem run_par_ser lin1 iters : forall st calls trace,
    run G P F parallel S next update g2p coerce fit n (cut_points c n) iters st calls trace =
    run G P F parallel S next update g2p coerce fit 1 lin1 iters st calls trace.
  Proof.
    induction iters as [|it IH]; intros st calls trace; [reflexivity|]. cbn [run].
    rewrite (evaluate_par_ser lin1) by apply next_size.
    destruct (evaluate G P F parallel g2p coerce fit 1 lin1 calls (next st)) as [[ph v] calls'].
    apply IH.
  Qed.
End ParSer.

Lemma quot_rem_unique x n q r : x = n * q + r -> 0 <= r < n -> q = x / n /\ r = x mod n.
Proof.
  intros H Hr. split; [apply (Z.div_unique_pos x n q r) | apply (Z.mod_unique_pos x n q r)]; assumption.
Qed.

Lemma env_fast_spec pop n a b : 0 < n -> pop = n * a + b -> 0 <= b < n ->
  forall l k q r, k * pop = n * q + r -> 0 <= r < n -> env_fast a b n q r l = true ->
  forall i, (i < length l)%nat ->
    let x := nth i l 0 in let kk := k + Z.of_nat i in
    x = kk * pop / n \/ ((kk * pop) mod n = 0 /\ pop mod n <> 0 /\ x = kk * pop / n - 1).
Proof.
  intros Hn Hpop Hb.
  destruct (quot_rem_unique pop n a b Hpop Hb) as [_ Eb].
  induction l as [|y l IH]; intros k q r Hk Hr H i Hi; simpl in Hi; [lia|].
  simpl in H. apply andb_true_iff in H. destruct H as [H1 H2].
  destruct (quot_rem_unique _ n q r Hk Hr) as [Eq Er].
  destruct i as [|i].
  - simpl. replace (k + 0) with k by lia.
    destruct (Z.eqb_spec y q); [left; congruence|].
    destruct (Z.eqb_spec r 0), (Z.eqb_spec b 0), (Z.eqb_spec y (q - 1)); try discriminate H1.
    right. repeat split; congruence.
  - cbv zeta in *.
    replace (k + Z.of_nat (S i)) with (k + 1 + Z.of_nat i) by lia.
    destruct (Z.ltb_spec (r + b) n) as [Hlt|Hge].
    + apply (IH (k + 1) (q + a) (r + b)); try assumption; lia.
    + apply (IH (k + 1) (q + a + 1) (r + b - n)); try assumption; lia.
Qed.

Lemma envelope_b_spec pop n l : 0 < n -> envelope_b pop n l = true ->
  Z.of_nat (length l) = n + 1 /\ Envelope pop n (cut_fn l).
Proof.
  intros Hn H. unfold envelope_b in H.
  apply andb_true_iff in H. destruct H as [H H4].
  apply andb_true_iff in H. destruct H as [H H3].
  apply andb_true_iff in H. destruct H as [H1 H2].
  apply Z.eqb_eq in H1, H2, H3.
  split; [exact H1|]. unfold Envelope, cut_fn. split; [exact H2|]. split; [exact H3|].
  intros k Hk.
  pose proof (Z_div_mod pop n ltac:(lia)) as Hdm.
  destruct (Z.div_eucl pop n) as [a b]. destruct Hdm as [Hpop Hb].
  pose proof (env_fast_spec pop n a b Hn Hpop Hb l 0 0 0 ltac:(lia) ltac:(lia) H4
                            (Z.to_nat k) ltac:(lia)) as E.
  cbv zeta in E. rewrite Z2Nat.id in E by lia. exact E.
Qed.

Lemma map_nth_seq {B} (l : list B) d : map (fun i => nth i l d) (seq 0 (length l)) = l.
Proof.
  induction l as [|x l IH]; simpl; [reflexivity|]. f_equal.
  rewrite <- seq_shift, map_map. exact IH.
Qed.

Lemma cut_points_cut_fn l n : 0 <= n -> Z.of_nat (length l) = n + 1 -> cut_points (cut_fn l) n = l.
Proof.
  intros Hn H. unfold cut_points, cut_fn. rewrite Zseq_0, map_map.
  replace (Z.to_nat n + 1)%nat with (length l) by lia.
  erewrite map_ext; [apply map_nth_seq|]. intros a. simpl. now rewrite Nat2Z.id.
Qed.

Lemma cut_fn_map (F : Z -> Z) n k : 0 <= k <= n ->
  cut_fn (map F (Zseq 0 (Z.to_nat n + 1))) k = F k.
Proof.
  intros Hk. unfold cut_fn. rewrite Zseq_0, map_map.
  rewrite (nth_indep _ 0 (F (Z.of_nat 0))) by (rewrite map_length, seq_length; lia).
  rewrite (map_nth (fun i => F (Z.of_nat i))), seq_nth by lia. f_equal. lia.
Qed.

Lemma In_Zseq a len x : a <= x < a + Z.of_nat len -> In x (Zseq a len).
Proof.
  intros H. unfold Zseq. apply in_map_iff. exists (Z.to_nat (x - a)). split; [lia|].
  apply in_seq. lia.
Qed.

Lemma sweep_b_spec B : sweep_b B = true ->
  forall pop n, 1 <= n <= pop -> pop <= Z.of_nat B ->
    Z.of_nat (length (linspace_int pop n)) = n + 1 /\ Envelope pop n (cut_fn (linspace_int pop n)).
Proof.
  intros H pop n Hn Hp. unfold sweep_b in H.
  rewrite forallb_forall in H. specialize (H pop (In_Zseq 1 B pop ltac:(lia))).
  rewrite forallb_forall in H. specialize (H n (In_Zseq 1 (Z.to_nat pop) n ltac:(lia))).
  apply envelope_b_spec; [lia | exact H].
Qed.

(* The sweep over 1 <= n <= pop <= 256 is one conversion between two lists of primitive integers:
   the floors the float model gives ([got_all]) and the floors the envelope asks for ([want_all]).
   A boolean checker would have to compare in Z, and [Uint63.to_Z] is a 63-step recursion at each of
   the 2.8 million points, or compare with [Uint63.eqb] and be believed through
   [Uint63.eqb_correct], an axiom of the standard library.  Here equality of [int]s is the kernel's
   conversion, and nothing is assumed of the primitive operations: [Uint63.eqb] only picks, where the
   envelope allows two values, the one [want_all] lists, so the entry is an allowed value whatever it
   answers, and the one table [ints] takes the integers back to Z. *)
Definition floor_i (x : float) : int :=
  if PrimFloat.ltb x PrimFloat.one then 0%uint63
  else let '(m, se) := PrimFloat.frshiftexp x in
       let mant := PrimFloat.normfr_mantissa m in
       if Uint63.leb se 2154%uint63
       then Uint63.lsr mant (Uint63.sub 2154%uint63 se)
       else Uint63.lsl mant (Uint63.sub se 2154%uint63).

Lemma float_floor_i x : float_floor x = Uint63.to_Z (floor_i x).
Proof.
  unfold float_floor, floor_i. destruct (PrimFloat.ltb x PrimFloat.one); [reflexivity|].
  destruct (PrimFloat.frshiftexp x). reflexivity.
Qed.

(* [map f [k; k+1; ...]] with the counter carried: [Zseq] pays a [Z.of_nat] per element *)
Section Upto.
  Context {A : Type} (f : Z -> A).

  Fixpoint upto (k : Z) (m : nat) : list A :=
    match m with
    | O => []
    | S m' => f k :: upto (k + 1) m'
    end.

  Lemma nth_upto d m : forall k z, k <= z < k + Z.of_nat m ->
    nth (Z.to_nat (z - k)) (upto k m) d = f z.
  Proof.
    induction m as [|m IH]; intros k z Hz; [lia|].
    destruct (Z.eq_dec z k) as [->|Hne]; [rewrite Z.sub_diag; reflexivity|].
    replace (Z.to_nat (z - k)) with (S (Z.to_nat (z - (k + 1)))) by lia. apply IH; lia.
  Qed.
End Upto.

(* linspace_y with its case distinction taken once per (pop, n) *)
Definition y_fn (pop n : Z) : float -> float :=
  let delta := f_of_Z pop in
  let nf := f_of_Z n in
  let step := PrimFloat.div delta nf in
  if PrimFloat.eqb step PrimFloat.zero
  then fun yk => PrimFloat.add (PrimFloat.mul (PrimFloat.div yk nf) delta) PrimFloat.zero
  else fun yk => PrimFloat.add (PrimFloat.mul yk step) PrimFloat.zero.

Lemma y_fn_spec pop n k : 0 < n ->
  float_floor (linspace_y (f_of_Z pop) (f_of_Z n) (PrimFloat.div (f_of_Z pop) (f_of_Z n)) n k) =
  Uint63.to_Z (floor_i (y_fn pop n (f_of_Z k))).
Proof.
  intros Hn. rewrite float_floor_i. unfold linspace_y, y_fn. rewrite (proj2 (Z.ltb_lt 0 n) Hn). cbv zeta.
  destruct (PrimFloat.eqb _ _); reflexivity.
Qed.

(* the floats 0.0, 1.0, ..., 256.0 and the integers -1, 0, 1, ..., 257.  Entry 0 of [ints] only
   fills the place before 0 (its [to_Z] is not -1): [want_row] selects it nowhere *)
Definition flts : list float := upto f_of_Z 0 257.
Definition ints : list int := upto Uint63.of_Z (-1) 259.

(* by evaluation of the 257 entries: [Uint63.of_Z_spec] would bring the axioms of Uint63 *)
Lemma ints_spec j : (j <= 256)%nat -> Uint63.to_Z (nth (S j) ints 0%uint63) = Z.of_nat j.
Proof.
  intros Hj.
  assert (T : forallb (fun j => Uint63.to_Z (nth (S j) ints 0%uint63) =? Z.of_nat j) (seq 0 257) = true)
    by reflexivity.
  rewrite forallb_forall in T. apply Z.eqb_eq, T, in_seq. lia.
Qed.

Section Row.
  Variable f : float -> float.

  Definition got_row (ys : list float) : list int := map (fun y => floor_i (f y)) ys.

  (* the row of pop = n*(a+1) + b, with c = b - n, from the point whose state is (qs, e, z): see
     [row_inv].  ys, the floats k, k+1, ..., ends the row and serves the choice *)
  Variables (a : nat) (b c : Z).

  Fixpoint want_row (ys : list float) (qs : list int) (e : Z) (z : bool) : list int :=
    match ys, qs with
    | y :: ys', p :: (q :: qs2) as qs1 =>
        (if z && Uint63.eqb (floor_i (f y)) p then p else q)
        :: match e with
           | Zneg _ => want_row ys' (skipn a qs1) (e + b) false
           | Z0 => want_row ys' (skipn a qs2) (e + c) true
           | Zpos _ => want_row ys' (skipn a qs2) (e + c) false
           end
    | _, _ => []
    end.
End Row.

Lemma nth_got_row f n k : 0 <= k < Z.of_nat n -> (n <= 257)%nat ->
  nth (Z.to_nat k) (got_row f (firstn n flts)) 0%uint63 = floor_i (f (f_of_Z k)).
Proof.
  intros Hk Hn. unfold got_row.
  rewrite (nth_indep _ 0%uint63 (floor_i (f PrimFloat.zero)))
    by (rewrite map_length, firstn_length; change (length flts) with 257%nat; lia).
  rewrite (map_nth (fun y => floor_i (f y))), nth_firstn by lia.
  unfold flts. replace (Z.to_nat k) with (Z.to_nat (k - 0)) by lia.
  now rewrite nth_upto by lia.
Qed.

(* The state of [want_row] at point k of the row of pop = n*(a+1) + b, where k*pop = n*q + r:
   qs is [ints] from q - 1 on (q grows by a + 1 or a + 2 per point, of which [want_row]'s pattern
   takes one step); the sign of e = r + b - n says whether the next remainder wraps, and e = 0 that
   it is 0; z is set only where r = 0, b <> 0 and 0 < q, where the envelope also allows q - 1 *)
Definition row_inv (pop n b k : Z) (qs : list int) (e : Z) (z : bool) : Prop :=
  exists (q : nat) r, k * pop = n * Z.of_nat q + r /\ 0 <= r < n /\
    qs = skipn q ints /\ e = r + b - n /\ (z = true -> r = 0 /\ b <> 0 /\ (0 < q)%nat).

(* what the envelope allows at point k, as entries of [ints] *)
Definition allowed (pop n k : Z) (w : int) : Prop :=
  let q := Z.to_nat (k * pop / n) in
  w = nth (S q) ints 0%uint63 \/
  ((k * pop) mod n = 0 /\ pop mod n <> 0 /\ (0 < q)%nat /\ w = nth q ints 0%uint63).

Lemma row_inv_0 pop n b : 0 < n -> row_inv pop n b 0 ints (b - n) false.
Proof. intros Hn. exists 0%nat, 0. repeat split; lia || discriminate. Qed.

(* one point: the entry is an allowed value, and the invariant holds at the next *)
Lemma row_inv_step f pop n a b k y ys qs e z :
  pop = n * Z.of_nat (S a) + b -> 0 <= b < n -> pop <= 256 -> 0 <= k < n -> row_inv pop n b k qs e z ->
  exists w qs' e' z',
    want_row f a b (b - n) (y :: ys) qs e z = w :: want_row f a b (b - n) ys qs' e' z' /\
    row_inv pop n b (k + 1) qs' e' z' /\ allowed pop n k w.
Proof.
  intros Hpop Hb Hp Hk (q & r & Hkq & Hr & Hqs & He & Hz).
  destruct (quot_rem_unique pop n _ b Hpop Hb) as [_ Eb].
  destruct (quot_rem_unique _ n _ r Hkq Hr) as [Eq Er].
  assert (Hq : (q <= 256)%nat) by nia.
  pose proof (skipn_cons_nth 0%uint63 (S q) ints) as Hq1.
  rewrite (skipn_cons_nth 0%uint63 q), Hq1 in Hqs by (change (length ints) with 259%nat; lia).
  subst qs. cbn [want_row]. rewrite <- Hq1 by (change (length ints) with 259%nat; lia).
  set (w := if z && _ then _ else _).
  assert (Hw : allowed pop n k w).
  { unfold allowed. rewrite <- Eq, Nat2Z.id. subst w. destruct z; [destruct (Uint63.eqb _ _)|]; cbn [andb]; auto.
    right. destruct (Hz eq_refl) as (? & ? & ?). repeat split; congruence. }
  destruct e as [|e|e]; exists w; eexists _, _, _; (split; [reflexivity|]); (split; [|exact Hw]);
    rewrite skipn_add.
  - exists (S (S q) + a)%nat, 0. repeat split; lia.
  - exists (S (S q) + a)%nat, (r + b - n). repeat split; lia || discriminate.
  - exists (S q + a)%nat, (r + b). repeat split; lia || discriminate.
Qed.

Lemma nth_want_row f pop n a b : pop = n * Z.of_nat (S a) + b -> 0 <= b < n -> pop <= 256 ->
  forall ys k qs e z, 0 <= k -> k + Z.of_nat (length ys) <= n -> row_inv pop n b k qs e z ->
    forall i, (i < length ys)%nat ->
      allowed pop n (k + Z.of_nat i) (nth i (want_row f a b (b - n) ys qs e z) 0%uint63).
Proof.
  intros Hpop Hb Hp. induction ys as [|y ys IH]; intros k qs e z Hk0 Hkm Hinv i Hi; simpl in Hi, Hkm; [lia|].
  destruct (row_inv_step f pop n a b k y ys qs e z Hpop Hb Hp ltac:(lia) Hinv)
    as (w & qs' & e' & z' & -> & Hinv' & Hw).
  destruct i as [|i]; cbn [nth].
  - rewrite Z.add_0_r. exact Hw.
  - replace (k + Z.of_nat (S i)) with (k + 1 + Z.of_nat i) by lia. apply IH; [lia | lia | exact Hinv' | lia].
Qed.

(* the rows (pop, n) for pop = p, p+1, ...: pop = n*(a+1) + b and c = b - n are carried along *)
Fixpoint want_rows (n : Z) (ys : list float) (pop : Z) (a : nat) (b c : Z) (m : nat) : list (list int) :=
  match m with
  | O => []
  | S m' =>
      want_row (y_fn pop n) a b c ys ints c false
      :: match c + 1 with
         | Z0 => want_rows n ys (pop + 1) (S a) 0 (- n) m'
         | c' => want_rows n ys (pop + 1) a (b + 1) c' m'
         end
  end.

Lemma nth_want_rows n ys : forall m pop a b c j, pop = n * Z.of_nat (S a) + b -> 0 <= b < n ->
  c = b - n -> (j < m)%nat -> exists a' b',
    pop + Z.of_nat j = n * Z.of_nat (S a') + b' /\ 0 <= b' < n /\
    nth j (want_rows n ys pop a b c m) [] =
    want_row (y_fn (pop + Z.of_nat j) n) a' b' (b' - n) ys ints (b' - n) false.
Proof.
  induction m as [|m IH]; intros pop a b c [|j] Hpop Hb -> Hj; try lia.
  - exists a, b. rewrite Z.add_0_r. auto.
  - replace (pop + Z.of_nat (S j)) with (pop + 1 + Z.of_nat j) by lia. cbn [want_rows nth].
    destruct (b - n + 1) eqn:Ec; apply IH; lia.
Qed.

(* for each n = 1, ..., 256 the rows pop = n, ..., 256, over the first n floats *)
Definition got_all : list (list (list int)) :=
  upto (fun n => let i := Z.to_nat n in
                 let ys := firstn i flts in
                 upto (fun pop => got_row (y_fn pop n) ys) n (257 - i)) 1 256.

Definition want_all : list (list (list int)) :=
  upto (fun n => let i := Z.to_nat n in want_rows n (firstn i flts) n 0 0 (- n) (257 - i)) 1 256.

(* with the expected points on the left the lazy checker does a tenth less work *)
Lemma sweep_256 : want_all = got_all.
Proof. vm_cast_no_check (eq_refl got_all). Qed.

Lemma sweep_row pop n : 1 <= n <= pop -> pop <= 256 ->
  let ys := firstn (Z.to_nat n) flts in
  exists a b, pop = n * Z.of_nat (S a) + b /\ 0 <= b < n /\
    got_row (y_fn pop n) ys = want_row (y_fn pop n) a b (b - n) ys ints (b - n) false.
Proof.
  intros Hn Hp ys.
  pose proof (f_equal (fun l => nth (Z.to_nat (pop - n)) (nth (Z.to_nat (n - 1)) l []) []) sweep_256) as Hsw.
  unfold got_all, want_all in Hsw.
  rewrite !(nth_upto _ _ 256 1 n) in Hsw by lia. cbv zeta in Hsw.
  rewrite (nth_upto _ _ _ n pop) in Hsw by lia. fold ys in Hsw.
  destruct (nth_want_rows n ys (257 - Z.to_nat n) n 0 0 (- n) (Z.to_nat (pop - n)))
    as (a & b & Hpop & Hb & E); try lia.
  rewrite E in Hsw. replace (n + Z.of_nat (Z.to_nat (pop - n))) with pop in * by lia.
  exists a, b. auto.
Qed.

Lemma sweep_point pop n k : 1 <= n <= pop -> pop <= 256 -> 0 <= k < n ->
  let x := cut_fn (linspace_int pop n) k in
  x = k * pop / n \/
  ((k * pop) mod n = 0 /\ pop mod n <> 0 /\ 0 < k * pop / n /\ x = k * pop / n - 1).
Proof.
  intros Hn Hp Hk. unfold linspace_int. rewrite cut_fn_map by lia.
  destruct (Z.eqb_spec k n) as [|_]; [lia|]. rewrite andb_false_r, y_fn_spec by lia.
  destruct (sweep_row pop n Hn Hp) as (a & b & Hpop & Hb & Hrow).
  assert (Hl : length (firstn (Z.to_nat n) flts) = Z.to_nat n)
    by (rewrite firstn_length; change (length flts) with 257%nat; lia).
  pose proof (nth_want_row (y_fn pop n) pop n a b Hpop Hb Hp (firstn (Z.to_nat n) flts) 0 ints
                (b - n) false ltac:(lia) ltac:(lia) (row_inv_0 pop n b ltac:(lia))
                (Z.to_nat k) ltac:(lia)) as Hw.
  unfold allowed in Hw. rewrite <- Hrow, nth_got_row, Z.add_0_l, Z2Nat.id in Hw by lia.
  destruct (envelope_range pop n _ Hn (cut_floor_envelope pop n ltac:(lia)) k ltac:(lia)) as [Hq0 Hqp].
  unfold cut_floor in Hq0, Hqp.
  destruct Hw as [Hw | (H1 & H2 & H3 & Hw)]; cbv zeta; rewrite Hw.
  - left. rewrite ints_spec by lia. lia.
  - right. destruct (Z.to_nat (k * pop / n)) as [|q] eqn:Eq; [lia|].
    rewrite ints_spec by lia. repeat split; try assumption; lia.
Qed.

(* BOUNDED (pop <= 256): the bit-exact binary64 model of numpy.linspace lies in the envelope *)
Theorem linspace_envelope_upto256 : forall pop n, 1 <= n <= pop -> pop <= 256 ->
  Envelope pop n (cut_fn (linspace_int pop n)) /\
  cut_points (cut_fn (linspace_int pop n)) n = linspace_int pop n.
Proof.
  intros pop n Hn Hp. pose proof (sweep_point pop n) as Hpt. split; [split; [|split]|].
  - destruct (Hpt 0 Hn Hp ltac:(lia)) as [E | (_ & _ & H & _)]; rewrite Z.mul_0_l, Z.div_0_l in * by lia;
      [exact E | lia].
  - unfold linspace_int. rewrite cut_fn_map, Z.eqb_refl, (proj2 (Z.ltb_lt 0 n)) by lia. reflexivity.
  - intros k Hk. destruct (Hpt k Hn Hp ltac:(lia)) as [E | (? & ? & _ & E)]; auto.
  - apply cut_points_cut_fn; [lia|]. unfold linspace_int, Zseq. rewrite !map_length, seq_length. lia.
Qed.
