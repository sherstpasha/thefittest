(* AdaptProofs.v — ranges of the sampled and the written parameters, memory invariant, archive (C15). *)
From TF Require Import Base QSum RandomPrimsProofs2 Adapt.
From Coq Require Import Permutation.
Open Scope Q_scope.

(* a sampler that redraws while [rej] holds returns [post] of the first draw not rejected *)
Lemma rejection_loop (f : list draw -> option (Q * list draw)) (rej : Q -> bool) (post : Q -> Q) :
  f [] = None ->
  (forall d r, f (d :: r) = match d with DX x => if rej x then f r else Some (post x, r) | _ => None end) ->
  forall ds v ds', f ds = Some (v, ds') ->
  (exists x, rej x = false /\ v = post x) /\ (valid_draws ds -> valid_draws ds').
Proof.
  intros Hnil Hcons. induction ds as [|d ds IH]; intros v ds' H; [congruence|].
  rewrite Hcons in H. destruct d as [u|? ?|x]; try discriminate. destruct (rej x) eqn:E.
  - destruct (IH _ _ H) as (Hx & Hv). split; [exact Hx|]. intros Hd. exact (Hv (Forall_inv_tail Hd)).
  - inversion H; subst. split; [eauto|apply Forall_inv_tail].
Qed.

Theorem randc01_range ds v ds' : randc01 ds = Some (v, ds') ->
  (0 < v /\ v <= 1) /\ (valid_draws ds -> valid_draws ds').
Proof.
  intros H.
  destruct (rejection_loop randc01 _ _ eq_refl (fun _ _ => eq_refl) _ _ _ H) as ((x & E & ->) & Hv').
  split; [|exact Hv']. apply Qle_bool_false in E.
  destruct (Qltb 1 x) eqn:E1; [lra|]. apply Qltb_ge in E1. lra.
Qed.

Theorem randc_hi_range hi ds v ds' : randc_hi hi ds = Some (v, ds') ->
  (0 < v /\ v <= hi) /\ (valid_draws ds -> valid_draws ds').
Proof.
  intros H.
  destruct (rejection_loop (randc_hi hi) _ (fun x => x) eq_refl (fun _ _ => eq_refl) _ _ _ H)
    as ((x & E & ->) & Hv').
  split; [|exact Hv']. apply orb_false_iff in E. destruct E as (E0 & E1).
  apply Qle_bool_false in E0. apply Qltb_ge in E1. lra.
Qed.

Lemma clamp01_range v : 0 <= clamp01 v /\ clamp01 v <= 1.
Proof. apply (clip_range 0 1 v). lra. Qed.

Theorem randn01_range ds v ds' : randn01 ds = Some (v, ds') ->
  (0 <= v /\ v <= 1) /\ (valid_draws ds -> valid_draws ds').
Proof.
  unfold randn01, bind, popX, ret. destruct ds as [|[?|? ?|x] r]; try discriminate.
  intros H; inversion H; subst. split; [apply clamp01_range|apply Forall_inv_tail].
Qed.

Lemma randint1_valid lo hi ds r ds' : randint lo hi 1 ds = Some (r, ds') -> valid_draws ds -> valid_draws ds'.
Proof.
  cbn [randint]. unfold bind, popU, ret. destruct ds as [|[u|? ?|?] dd]; try discriminate.
  intros H Hv; inversion H; subst. exact (Forall_inv_tail Hv).
Qed.

(* every generated pair: memory index in range, first parameter in (0,hi], second in [0,1] *)
Definition pair_ok (H : Z) (hi : Q) (t : Z * Q * Q) : Prop :=
  (0 <= fst (fst t) < H)%Z /\ (0 < snd (fst t) /\ snd (fst t) <= hi) /\ (0 <= snd t /\ snd t <= 1).

Theorem gen_pairs_range (first : list draw -> option (Q * list draw)) (hi : Q) :
  (forall ds v ds', first ds = Some (v, ds') -> (0 < v /\ v <= hi) /\ (valid_draws ds -> valid_draws ds')) ->
  forall n H ds r ds', (0 < H)%Z -> valid_draws ds -> gen_pairs first n H ds = Some (r, ds') ->
  length r = n /\ Forall (pair_ok H hi) r.
Proof.
  intros Hf. induction n as [|n IH]; intros H ds r ds' HH Hv Hg; cbn [gen_pairs] in Hg.
  - unfold ret in Hg. inversion Hg; subst. split; auto.
  - minv Hg.
    destruct (randint_range 0 H ltac:(lia) 1 _ _ _ Hv E) as (Hl & Hr).
    destruct l as [|j [|? ?]]; simpl in Hl; try lia. apply Forall_inv in Hr.
    apply randint1_valid in E; [|exact Hv].
    destruct (Hf _ _ _ E0) as (Ha & Hv1). destruct (randn01_range _ _ _ E1) as (Hb & Hv2).
    destruct (IH H l2 l3 ds' HH (Hv2 (Hv1 E)) E2) as (Hl3 & Hall).
    split; [simpl; lia|]. constructor; auto. unfold pair_ok. cbn. repeat split; try lia; tauto.
Qed.

Theorem shade_ranges pop H ds r ds' : (0 < H)%Z -> valid_draws ds -> shade_generate pop H ds = Some (r, ds') ->
  length r = pop /\ Forall (pair_ok H 1) r.
Proof. apply gen_pairs_range. apply randc01_range. Qed.

Theorem shaga_ranges hi pop H ds r ds' : (0 < H)%Z -> valid_draws ds -> shaga_generate hi pop H ds = Some (r, ds') ->
  length r = pop /\ Forall (pair_ok H hi) r.
Proof. apply gen_pairs_range. apply randc_hi_range. Qed.

Lemma wsum_nil_l x : wsum [] x = 0. Proof. reflexivity. Qed.
Lemma wsum_cons a w b x : wsum (a :: w) (b :: x) = a * b + wsum w x. Proof. reflexivity. Qed.

Lemma wsum_bounds : forall (w x : list Q) lo hi,
  Forall (fun a => 0 <= a) w -> Forall (fun a => lo <= a /\ a <= hi) x -> length w = length x ->
  lo * qsum w <= wsum w x /\ wsum w x <= hi * qsum w.
Proof.
  induction w as [|a w IH]; intros [|b x] lo hi Hw Hx Hl; try discriminate; [cbn; lra|].
  rewrite wsum_cons. cbn [qsum]. destruct (IH x lo hi (Forall_inv_tail Hw) (Forall_inv_tail Hx)) as (H1 & H2); [auto|].
  apply Forall_inv in Hw, Hx. nra.
Qed.

(* weighted Lehmer mean: sum(w x^2)/sum(w x) lies between the bounds of x when sum(w x) > 0 *)
Lemma wsum_sq_bounds : forall (w x : list Q) lo hi, 0 <= lo ->
  Forall (fun a => 0 <= a) w -> Forall (fun a => lo <= a /\ a <= hi) x -> length w = length x ->
  lo * wsum w x <= wsum w (sq x) /\ wsum w (sq x) <= hi * wsum w x.
Proof.
  induction w as [|a w IH]; intros [|b x] lo hi Hlo Hw Hx Hl; try discriminate; [cbn; lra|].
  change (sq (b :: x)) with (b * b :: sq x). rewrite !wsum_cons.
  destruct (IH x lo hi Hlo (Forall_inv_tail Hw) (Forall_inv_tail Hx)) as (H1 & H2); [auto|].
  apply Forall_inv in Hw, Hx. destruct Hx.
  assert (0 <= a * b) by nra. assert (lo * (a * b) <= a * (b * b)) by nra. assert (a * (b * b) <= hi * (a * b)) by nra. lra.
Qed.

Theorem lehmer_range w x lo hi : 0 <= lo -> lo <= hi ->
  Forall (fun a => 0 <= a) w -> Forall (fun a => lo <= a /\ a <= hi) x -> length w = length x ->
  (0 < wsum w x -> lo <= lehmer w x /\ lehmer w x <= hi) /\
  (wsum w x == 0 -> lehmer w x == 0).
Proof.
  intros Hlo Hlh Hw Hx Hl. unfold lehmer. split.
  - intros Hpos. destruct (Qeq_bool (wsum w x) 0) eqn:E; [apply Qeq_bool_iff in E; lra|].
    destruct (wsum_sq_bounds w x lo hi Hlo Hw Hx Hl) as (H1 & H2).
    split; [apply Qle_shift_div_l|apply Qle_shift_div_r]; lra.
  - intros Hz. apply Qeq_bool_iff in Hz. now rewrite Hz.
Qed.

(* with positive total weight and values >= lo > 0 the denominator is positive *)
Lemma lehmer_pos_range w x lo hi : 0 < lo -> 0 < qsum w ->
  Forall (fun a => 0 <= a) w -> Forall (fun a => lo <= a /\ a <= hi) x -> length w = length x ->
  lo <= lehmer w x /\ lehmer w x <= hi.
Proof.
  intros Hlo Hs Hw Hx Hl. destruct (wsum_bounds w x lo hi Hw Hx Hl) as (H1 & _).
  assert (Hlh : lo <= hi).
  { destruct x as [|b x]; [|apply Forall_inv in Hx; lra]. destruct w; [cbn in Hs; lra|discriminate]. }
  apply (lehmer_range w x lo hi); auto; nra.
Qed.

Lemma Forall_pos_lower_bound hi S : Forall (fun a => 0 < a /\ a <= hi) S ->
  exists lo, 0 < lo /\ Forall (fun a => lo <= a /\ a <= hi) S.
Proof.
  induction 1 as [|a S (Ha0 & Ha1) _ (lo & Hlo & Hall)]; [exists 1; split; [lra|constructor]|].
  destruct (Qlt_le_dec a lo) as [E|E].
  - exists a. split; [lra|]. constructor; [lra|]. eapply Forall_impl; [|exact Hall]. cbv beta. intros; lra.
  - exists lo. split; [lra|]. constructor; [lra|exact Hall].
Qed.

Lemma ones_nonneg n : Forall (fun a => 0 <= a) (ones n).
Proof. apply Forall_forall. intros a Ha. apply repeat_spec in Ha. subst. lra. Qed.

Lemma qsum_ones n : qsum (ones n) == inject_Z (Z.of_nat n).
Proof. induction n as [|n IH]; [reflexivity|]. change (ones (S n)) with (1 :: ones n). cbn [qsum]. rewrite IH, Qn_S. ring. Qed.

(* SHADE: the new F cell is in (0,1] when all successful F are; the new CR cell is in [0,1] *)
Theorem shade_update_F_range u S : 0 < u /\ u <= 1 -> Forall (fun a => 0 < a /\ a <= 1) S ->
  0 < shade_update_F u S /\ shade_update_F u S <= 1.
Proof.
  intros Hu HS. unfold shade_update_F. destruct S as [|s S']; [exact Hu|].
  destruct (Forall_pos_lower_bound 1 _ HS) as (lo & Hlo & Hall).
  destruct (lehmer_pos_range (ones (length (s :: S'))) (s :: S') lo 1 Hlo) as (H1 & H2); auto.
  - rewrite qsum_ones. apply Qn_pos. simpl; lia.
  - apply ones_nonneg.
  - apply repeat_length.
  - lra.
Qed.

(* the cell written when the improvements df weigh the successful values S: the old value u unless
   S is non-empty and sum df > 0; then a mean with the non-negative weights df / sum df *)
Lemma weighted_update_cases (m : list Q -> list Q -> Q) (P : Q -> Prop) u S df :
  P u -> Forall (fun d => 0 <= d) df ->
  (forall w, Forall (fun a => 0 <= a) w -> length w = length df -> qsum w == 1 -> P (m w S)) ->
  P (match S with [] => u | _ => if Qltb 0 (qsum df) then m (weights df) S else u end).
Proof.
  intros Hu Hd Hm. destruct S; [exact Hu|]. destruct (Qltb 0 (qsum df)) eqn:E; [|exact Hu]. apply Qltb_lt in E.
  destruct (normalise_dist df E) as (Hl & Hs & Hw & _). apply Hm; auto.
Qed.

Theorem shade_update_CR_range u S df : 0 <= u /\ u <= 1 -> Forall (fun a => 0 <= a /\ a <= 1) S ->
  Forall (fun d => 0 <= d) df -> length df = length S ->
  0 <= shade_update_CR u S df /\ shade_update_CR u S df <= 1.
Proof.
  intros Hu HS Hd Hl. apply (weighted_update_cases wsum (fun v => 0 <= v /\ v <= 1)); auto. intros w Hw Hwl Hws.
  destruct (wsum_bounds w S 0 1 Hw HS ltac:(lia)). lra.
Qed.

(* SHAGA: the CR cell stays in [0,1] (the Lehmer mean with a zero denominator is 0) *)
Theorem shaga_update_range_CR u S df : 0 <= u /\ u <= 1 -> Forall (fun a => 0 <= a /\ a <= 1) S ->
  Forall (fun d => 0 <= d) df -> length df = length S ->
  0 <= shaga_update u S df /\ shaga_update u S df <= 1.
Proof.
  intros Hu HS Hd Hl. apply (weighted_update_cases lehmer (fun v => 0 <= v /\ v <= 1)); auto. intros w Hw Hwl Hws.
  destruct (lehmer_range w S 0 1 ltac:(lra) ltac:(lra) Hw HS ltac:(lia)) as (Hr & Hz).
  destruct (wsum_bounds w S 0 1 Hw HS ltac:(lia)) as (H1 & _).
  destruct (Qlt_le_dec 0 (wsum w S)) as [Hp|Hp]; [destruct (Hr Hp); lra|].
  assert (H : wsum w S == 0) by lra. rewrite (Hz H). lra.
Qed.

(* SHAGA: the mutation-rate cell stays in (0,hi] *)
Theorem shaga_update_range_MR hi u S df : 0 < u /\ u <= hi ->
  (exists lo, 0 < lo /\ Forall (fun a => lo <= a /\ a <= hi) S) ->
  Forall (fun d => 0 <= d) df -> length df = length S ->
  0 < shaga_update u S df /\ shaga_update u S df <= hi.
Proof.
  intros Hu (lo & Hlo & HS) Hd Hl.
  apply (weighted_update_cases lehmer (fun v => 0 < v /\ v <= hi)); auto. intros w Hw Hwl Hws.
  destruct (lehmer_pos_range w S lo hi Hlo) as (H1 & H2); auto; lra || lia.
Qed.

Theorem next_k_cyclic k H : (k < H)%nat -> (next_k k H < H)%nat /\ next_k k H = ((k + 1) mod H)%nat.
Proof.
  intros Hk. unfold next_k. destruct (S k =? H)%nat eqn:E.
  - apply Nat.eqb_eq in E. split; [lia|]. subst H. replace (k + 1)%nat with (S k) by lia. now rewrite Nat.mod_same.
  - apply Nat.eqb_neq in E. split; [lia|]. rewrite Nat.mod_small by lia. lia.
Qed.

Definition mem_ok (Pa Pb : Q -> Prop) (m : memory) : Prop :=
  length (mem_b m) = length (mem_a m) /\ (mem_k m < length (mem_a m))%nat /\
  Forall Pa (mem_a m) /\ Forall Pb (mem_b m).

Lemma Forall_upd {A} (P : A -> Prop) (l : list A) i x : Forall P l -> P x -> Forall P (upd l i x).
Proof.
  revert i. induction l as [|a l IH]; intros [|i] Hl Hx; simpl; auto; inversion Hl; subst; constructor; auto.
Qed.

Theorem mem_write_inv (Pa Pb : Q -> Prop) ua ub m :
  (forall u, Pa u -> Pa (ua u)) -> (forall u, Pb u -> Pb (ub u)) ->
  mem_ok Pa Pb m ->
  let m' := mem_write ua ub m in
  mem_ok Pa Pb m' /\ mem_k m' = ((mem_k m + 1) mod length (mem_a m))%nat /\
  length (mem_a m') = length (mem_a m) /\
  (* only the cell next_k changes *)
  (forall i, i <> mem_k m' -> nth i (mem_a m') 0 = nth i (mem_a m) 0 /\ nth i (mem_b m') 0 = nth i (mem_b m) 0) /\
  nth (mem_k m') (mem_a m') 0 = ua (nth (mem_k m) (mem_a m) 0) /\
  nth (mem_k m') (mem_b m') 0 = ub (nth (mem_k m) (mem_b m) 0).
Proof.
  intros Ha Hb (Hl & Hk & HA & HB). cbv zeta. unfold mem_write. cbn [mem_a mem_b mem_k].
  destruct (next_k_cyclic (mem_k m) (length (mem_a m)) Hk) as (Hn1 & Hn2).
  assert (HPa : Pa (nth (mem_k m) (mem_a m) 0)) by (rewrite Forall_forall in HA; apply HA, nth_In; auto).
  assert (HPb : Pb (nth (mem_k m) (mem_b m) 0)) by (rewrite Forall_forall in HB; apply HB, nth_In; lia).
  split; [|split; [auto|split; [apply upd_length|split; [|split]]]].
  - unfold mem_ok. cbn [mem_a mem_b mem_k]. rewrite !upd_length. repeat split; auto; apply Forall_upd; auto.
  - intros i Hi. split; apply nth_upd_neq; auto.
  - apply nth_upd_eq; auto.
  - apply nth_upd_eq; lia.
Qed.

Theorem archive_spec {A} (d : A) pop_size archive worse ds a ds' :
  valid_draws ds -> append_archive d pop_size archive worse ds = Some (a, ds') ->
  (length archive <= pop_size)%nat ->
  (length a <= pop_size)%nat /\ forall x, In x a -> In x archive \/ In x worse.
Proof.
  intros Hv H Hl. unfold append_archive in H.
  destruct (pop_size <? length (archive ++ worse))%nat eqn:E.
  - minv H. split; [rewrite firstn_length; lia|]. intros x Hx.
    apply in_app_or, (Permutation_in _ (Permutation_sym (sattolo_perm d _ _ _ _ Hv E0))).
    rewrite <- (firstn_skipn pop_size l). apply in_or_app. auto.
  - unfold ret in H. inversion H; subst. apply Nat.ltb_ge in E. split; [auto|]. intros x Hx. apply in_app_or; auto.
Qed.

(* every member appended is a parent replaced by a STRICTLY better trial *)
Theorem successful_spec {A} (par trial : list Q) (xs : list A) x :
  In x (successful par trial xs) -> exists i, (i < length xs)%nat /\ nth_error xs i = Some x /\
    nth i par 0 < nth i trial 0.
Proof.
  unfold successful. revert trial xs. induction par as [|p par IH]; intros [|t trial] [|y xs] H; cbn in H; try contradiction.
  cbn [combine filter map] in H. cbn [fst snd] in H.
  destruct (Qltb p t) eqn:E.
  - cbn [map] in H. destruct H as [<-|H].
    + exists 0%nat. split; [simpl; lia|]. split; [reflexivity|]. apply Qltb_lt in E. exact E.
    + destruct (IH trial xs H) as (i & Hi & Hn & Hlt). exists (S i). split; [simpl; lia|]. auto.
  - destruct (IH trial xs H) as (i & Hi & Hn & Hlt). exists (S i). split; [simpl; lia|]. auto.
Qed.

Lemma popXs_length : forall n ds vs ds', popXs n ds = Some (vs, ds') -> length vs = n.
Proof.
  induction n as [|n IH]; intros ds vs ds' H; cbn [popXs] in H.
  - unfold ret in H. inversion H; auto.
  - minv H. simpl. f_equal. eapply IH; eauto.
Qed.

Lemma scatter_length f : forall mask old vals, length (scatter f mask old vals) = length old.
Proof.
  induction mask as [|m mask IH]; intros [|o old] vals; cbn [scatter]; try reflexivity.
  - destruct m; reflexivity.
  - destruct m.
    + destruct vals as [|v vals]; [reflexivity|]. cbn [length]. f_equal. apply IH.
    + cbn [length]. f_equal. apply IH.
Qed.

Theorem scatter_spec f : forall mask old vals i, length mask = length old ->
  (length (filter (fun b => b) mask) <= length vals)%nat -> (i < length old)%nat ->
  (nth i mask false = false -> nth i (scatter f mask old vals) 0 = nth i old 0) /\
  (nth i mask false = true -> exists v, In v vals /\ nth i (scatter f mask old vals) 0 = f v).
Proof.
  induction mask as [|m mask IH]; intros [|o old] vals i Hl Hv Hi; simpl in Hl, Hi; try lia.
  destruct m; cbn [scatter filter] in *.
  - destruct vals as [|v vals]; [simpl in Hv; lia|]. cbn [length] in *.
    destruct i as [|i].
    + cbn. split; [discriminate|]. intros _. exists v. split; [left; auto|reflexivity].
    + destruct (IH old vals i ltac:(lia) ltac:(lia) ltac:(lia)) as (H2 & H3).
      cbn [nth]. split; [auto|]. intros Hm. destruct (H3 Hm) as (v' & Hin & Hn). exists v'. split; [right; auto|auto].
  - destruct i as [|i].
    + cbn. split; [reflexivity|discriminate].
    + destruct (IH old vals i ltac:(lia) Hv ltac:(lia)) as (H2 & H3). cbn [nth]. split; auto.
Qed.

