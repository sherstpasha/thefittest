(* CodeEqC16.v — EvolutionaryAlgorithm._get_n_jobs, translated on every run as a method (os.cpu_count() = the parameter cpu,
   `raise ValueError` = no result), IS the model's get_n_jobs (Split.v): negative values count back from the number of CPUs and are
   clamped to [1, pop_size], 0 is rejected, values above pop_size are clamped to pop_size. *)
From TF Require Import Py Split SplitProofs.
From TFG Require Import GenCode.
Open Scope Z_scope.

Theorem code_get_n_jobs cpu pop n ds :
  py_EA_get_n_jobs cpu pop n ds = match get_n_jobs cpu pop n with Some v => Some (v, ds) | None => None end.
Proof.
  unfold py_EA_get_n_jobs, get_n_jobs. rewrite Z.gtb_ltb.
  destruct (n <? 0); [reflexivity|]. destruct (n =? 0); [reflexivity|]. destruct (pop <? n); reflexivity.
Qed.

(* hence: whenever the source's _get_n_jobs returns, the value is a worker count in [1, pop_size] (pop_size >= 1) *)
Theorem src_get_n_jobs_range cpu pop n v ds ds' : 1 <= pop ->
  py_EA_get_n_jobs cpu pop n ds = Some (v, ds') -> 1 <= v <= pop /\ n <> 0 /\ ds' = ds.
Proof.
  intros Hp. rewrite code_get_n_jobs.
  destruct (Z.eq_dec n 0) as [->|Hn]; [discriminate|].
  destruct (get_n_jobs_range cpu pop n Hp Hn) as (j & -> & Hj). intros [= <- <-]. auto.
Qed.
