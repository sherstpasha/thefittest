(* CodeEqC11.v — the hand-written models of the sampling / selection primitives (RandomPrims.v) are EQUAL to the
   definitions that harness/translate_code.py generates from the source of utils/__init__.py, utils/random.py and
   utils/selections.py (coq/gen/GenCode.v).  These proofs are re-checked on every run against the regenerated
   file: an edit of one of those function bodies changes the generated definition and the proof below it. *)
From TF Require Import Py PyLemmas RandomPrimsProofs RandomPrimsProofs2.
From TFG Require Import GenCode.
Open Scope Z_scope.

Lemma cfv_loop v arr k : forall (i : nat) found, (i + k <= length arr)%nat ->
  for_brk_nat_p k (Z.of_nat i)
    (fun i0 found0 => if v =? getZ arr i0 then (true, true) else (found0, false)) found
  = if existsb (Z.eqb v) (firstn k (skipn i arr)) then true else found.
Proof.
  induction k as [|k IH]; intros i found H; [reflexivity|].
  cbn [for_brk_nat_p]. rewrite getZ_nat.
  assert (Hs : skipn i arr = nth i arr 0 :: skipn (Datatypes.S i) arr).
  { clear -H. revert i H; induction arr as [|x t IHa]; intros [|i] H; simpl in *; try lia; auto.
    apply IHa. lia. }
  rewrite Hs. cbn [firstn existsb].
  destruct (v =? nth i arr 0) eqn:E; [reflexivity|]. cbn [orb].
  replace (Z.of_nat i + 1) with (Z.of_nat (Datatypes.S i)) by lia. apply IH. lia.
Qed.

Theorem code_check_for_value v arr (k : nat) : (k <= length arr)%nat ->
  py_check_for_value v arr (Z.of_nat k) = memZ v (firstn k arr).
Proof.
  intro H. unfold py_check_for_value, for_brk_p, memZ. cbv zeta.
  rewrite Z.sub_0_r, Nat2Z.id.
  pose proof (cfv_loop v arr k 0 false) as H'. cbn [Z.of_nat] in H'. rewrite H' by lia.
  simpl skipn. destruct (existsb (Z.eqb v) (firstn k arr)); reflexivity.
Qed.

Lemma Zltb_of_nat a q : (Z.of_nat a <? Z.of_nat q) = negb (q <=? a)%nat.
Proof. destruct (Nat.leb_spec q a); [apply Z.ltb_ge|apply Z.ltb_lt]; lia. Qed.

(* random_sample, random_weighted_sample: one loop, two ways of turning a draw into an index *)
Section Sample.
Variables (pick : draw -> option Z) (q : nat) (replace : bool) (body : list Z * Z -> M (list Z * Z)).
Hypothesis Hb : forall sample i d r, body (sample, i) (d :: r) =
  match pick d with
  | Some v => Some (if negb replace && py_check_for_value v sample i then (sample, i) else (setA sample i v, i + 1), r)
  | None => None
  end.

Lemma sample_while : forall ds acc rest, (length acc + length rest = q)%nat ->
  while_f (length ds) (fun '(sample, i) => i <? Z.of_nat q) body (acc ++ rest, Z.of_nat (length acc)) ds
  = match sample_loop pick q replace acc ds with
    | Some (r, ds') => Some ((r, Z.of_nat (length r)), ds')
    | None => None
    end.
Proof.
  induction ds as [|d r IH]; intros acc rest Hlen; cbn [length while_f sample_loop]; rewrite Zltb_of_nat;
    destruct (Nat.leb_spec q (length acc)) as [Hq|Hq]; cbn [negb].
  (* the sample is full: nothing is left of [rest] *)
  1,3: assert (rest = []) as -> by (destruct rest; [reflexivity|simpl in Hlen; lia]); now rewrite app_nil_r.
  { reflexivity. }
  unfold bind. rewrite Hb. destruct (pick d) as [v|]; [|reflexivity].
  destruct rest as [|z rest']; [simpl in Hlen; lia|].
  rewrite code_check_for_value, firstn_app_exact by (rewrite app_length; lia).
  destruct (negb replace && memZ v acc); [now apply IH|].
  (* position [length acc] is filled: the accumulator grows by one *)
  rewrite setA_nat, upd_app_r. cbn [upd].
  replace (acc ++ v :: rest') with ((acc ++ [v]) ++ rest') by now rewrite <- app_assoc.
  replace (Z.of_nat (length acc) + 1) with (Z.of_nat (length (acc ++ [v]))) by (rewrite app_length; simpl; lia).
  apply IH. rewrite app_length. simpl in *. lia.
Qed.

(* the wrapper both functions share: the size check unless sampling with replacement, a zero-filled result *)
Lemma sample_code (n : Z) ds : replace = true \/ Z.of_nat q <= n ->
  bind (if negb replace then bind (guard (n >=? Z.of_nat q)) (fun _ => ret tt) else ret tt) (fun _ =>
    bind (while_ds O (zerosZ (Z.of_nat q), 0) (fun '(sample, i) => i <? Z.of_nat q) body)
         (fun '(sample, i) => ret sample)) ds
  = sample_loop pick q replace [] ds.
Proof.
  intros Hpre.
  assert (Hg : (if negb replace then bind (guard (n >=? Z.of_nat q)) (fun _ => ret tt) else ret tt) ds = Some (tt, ds)).
  { destruct replace; [reflexivity|]. destruct Hpre as [Hc|Hle]; [discriminate|].
    unfold bind, guard. cbn [negb]. now replace (n >=? Z.of_nat q) with true by (symmetry; apply Z.geb_le; lia). }
  rewrite bind_app, Hg, bind_app. unfold while_ds. cbn [Nat.add]. rewrite zerosZ_nat.
  pose proof (sample_while ds [] (repeat 0 q)) as H.
  cbn [app length Z.of_nat] in H. rewrite H by (rewrite repeat_length; reflexivity).
  destruct (sample_loop pick q replace [] ds) as [[r ds']|]; reflexivity.
Qed.
End Sample.

Theorem code_random_sample n (q : nat) replace ds :
  replace = true \/ Z.of_nat q <= n ->
  py_random_sample n (Z.of_nat q) replace ds = random_sample n q replace ds.
Proof.
  intro Hpre. unfold py_random_sample, random_sample. rewrite random_sample_loop_eq.
  apply sample_code; [|exact Hpre].
  intros sample i [u|m v|x] r; try reflexivity. cbn [pickI]. unfold bind, popI.
  destruct (m =? n); [|reflexivity]. destruct replace; [reflexivity|]. cbn [negb andb].
  destruct (py_check_for_value v sample i); reflexivity.
Qed.

Lemma Zgtb_false a b : a <= b -> (a >? b) = false.
Proof. intro H. rewrite Z.gtb_ltb. apply Z.ltb_ge. lia. Qed.
Lemma Zgtb_true a b : b < a -> (a >? b) = true.
Proof. intro H. rewrite Z.gtb_ltb. apply Z.ltb_lt. lia. Qed.

(* the loop's final [right] is the model's answer; the final [left] is not used by the caller *)
Lemma bsi_while v c : forall fuel2 fuel1 (l r : nat) ds,
  (l <= r)%nat -> (r - l <= fuel1)%nat -> (r - l <= fuel2)%nat ->
  exists l', while_f fuel1 (fun '(right_, left_) => right_ - left_ >? 1)
    (fun '(right_, left_) =>
       let mid := (left_ + right_) / 2 in
       let '(right_, left_) := if Qle_bool v (getQ c mid) then (mid, left_) else (right_, mid) in
       ret (right_, left_))
    (Z.of_nat r, Z.of_nat l) ds
  = Some ((Z.of_nat (bsi_loop fuel2 v c l r), l'), ds).
Proof.
  induction fuel2 as [|f2 IH]; intros fuel1 l r ds Hlr H1 H2; cbn [bsi_loop].
  - exists (Z.of_nat l). rewrite while_f_false; [reflexivity|]. apply Zgtb_false. lia.
  - destruct (Nat.ltb_spec 1 (r - l)) as [E|E].
    + destruct fuel1 as [|f1]; [lia|]. rewrite while_f_true by (apply Zgtb_true; lia).
      cbv zeta. unfold bind at 1.
      assert (Hmid : (Z.of_nat l + Z.of_nat r) / 2 = Z.of_nat ((l + r) / 2))
        by now rewrite <- Nat2Z.inj_add, (Nat2Z.inj_div (l + r) 2).
      rewrite Hmid, getQ_nat.
      destruct (mid_between l r E) as [Hm1 Hm2].
      destruct (Qle_bool v (nth ((l + r) / 2) c 0%Q)); unfold ret at 1; apply IH; lia.
    + exists (Z.of_nat l). rewrite while_f_false; [reflexivity|]. apply Zgtb_false. lia.
Qed.

Theorem code_binary_search_interval v c ds : c <> [] ->
  py_binary_search_interval v c ds = Some (Z.of_nat (bsi v c), ds).
Proof.
  intro Hc. unfold py_binary_search_interval, bsi. cbv zeta. rewrite getQ_0.
  destruct (Qle_bool v (nth 0 c 0%Q)); [reflexivity|].
  unfold bind at 1. unfold bind at 1. unfold while_ds.
  assert (Hr : zlen c - 1 = Z.of_nat (length c - 1)).
  { unfold zlen. destruct c; [congruence|]. simpl length. lia. }
  rewrite Hr.
  destruct (bsi_while v c (length c) (length c + length ds) 0 (length c - 1) ds) as [l' Hw]; try lia.
  cbv zeta in Hw. cbn [Z.of_nat] in Hw. rewrite Hw. reflexivity.
Qed.

Theorem code_random_weighted_sample w (q : nat) replace ds :
  w <> [] -> replace = true \/ (q <= length w)%nat ->
  py_random_weighted_sample w (Z.of_nat q) replace ds = random_weighted_sample w q replace ds.
Proof.
  intros Hw Hpre. unfold py_random_weighted_sample, random_weighted_sample. rewrite rws_loop_eq.
  apply sample_code; [|destruct Hpre; [now left|right; unfold zlen; lia]].
  intros sample i [u|m v|x] r; try reflexivity. cbn [pickW]. unfold bind at 1, popU. unfold bind at 1.
  rewrite code_binary_search_interval, getQ_last, cumsum_length by now apply cumsum_nonnil.
  fold (total w). fold (weighted_pick w u). destruct replace; [reflexivity|]. cbn [negb andb].
  destruct (py_check_for_value _ sample i); reflexivity.
Qed.

Theorem code_flip_coin p ds : py_flip_coin p ds = flip_coin p ds.
Proof. reflexivity. Qed.

Lemma for_idx_fill {R} (V : list draw -> Prop) (step : M R) (g : R -> Z) (model : nat -> M (list Z))
    (body : nat -> list Z -> M (list Z)) :
  (forall ds r ds', V ds -> step ds = Some (r, ds') -> V ds') ->
  (forall j s ds, V ds -> body j s ds = bind step (fun r => ret (setA s (Z.of_nat j) (g r))) ds) ->
  (forall ds, model O ds = ret [] ds) ->
  (forall k ds, model (Datatypes.S k) ds = bind step (fun r => bind (model k) (fun xs => ret (g r :: xs))) ds) ->
  forall k acc rest ds, V ds -> length rest = k ->
  for_idx k (length acc) body (acc ++ rest) ds = bind (model k) (fun xs => ret (acc ++ xs)) ds.
Proof.
  intros HV Hb H0 HS. induction k as [|k IH]; intros acc rest ds Hv Hr.
  - destruct rest; [|discriminate]. now rewrite bind_app, H0.
  - destruct rest as [|z rest]; [discriminate|]. cbn [for_idx].
    rewrite bind_app, (Hb _ _ _ Hv), bind_app, (bind_app (model _)), HS, bind_app.
    destruct (step ds) as [[r ds1]|] eqn:E; [|reflexivity].
    rewrite ret_app, setA_nat, upd_app_r. cbn [upd].
    replace (acc ++ g r :: rest) with ((acc ++ [g r]) ++ rest) by now rewrite <- app_assoc.
    replace (Datatypes.S (length acc)) with (length (acc ++ [g r])) by (rewrite app_length; simpl; lia).
    rewrite IH by (eauto; now injection Hr). rewrite !bind_app.
    destruct (model k ds1) as [[xs ds2]|]; [|reflexivity]. now rewrite !ret_app, <- app_assoc.
Qed.

Theorem code_randint low high (k : nat) ds :
  py_randint low high (Z.of_nat k) ds = randint low high k ds.
Proof.
  unfold py_randint. cbv zeta. rewrite bind_ret_r, for_range_0, zerosZ_nat, <- (bind_ret_r (randint low high k)).
  exact (for_idx_fill (fun _ => True) popU (fun u => low + Qfloor' (ZtoQ (high - low) * u)%Q) (randint low high) _
           (fun _ _ _ _ _ => I) (fun _ _ _ _ => eq_refl) (fun _ => eq_refl) (fun _ _ => eq_refl)
           k [] (repeat 0 k) ds I (repeat_length _ _)).
Qed.

Theorem code_proportional_selection fitness rank tour (q : nat) ds : fitness <> [] ->
  py_proportional_selection fitness rank tour (Z.of_nat q) ds = proportional_selection fitness rank (Z.to_nat tour) q ds.
Proof.
  intro H. unfold py_proportional_selection. cbv zeta. rewrite bind_ret_r. apply code_random_weighted_sample; auto.
Qed.
Theorem code_rank_selection fitness rank tour (q : nat) ds : rank <> [] ->
  py_rank_selection fitness rank tour (Z.of_nat q) ds = rank_selection fitness rank (Z.to_nat tour) q ds.
Proof.
  intro H. unfold py_rank_selection. cbv zeta. rewrite bind_ret_r. apply code_random_weighted_sample; auto.
Qed.

Lemma gatherQz_nonneg f t : Forall (fun v => 0 <= v) t -> gatherQz f t = gatherQ f t.
Proof.
  intro H. unfold gatherQz, gatherQ. apply map_ext_in. intros v Hv.
  rewrite Forall_forall in H. apply getQ_nonneg. auto.
Qed.

Theorem code_tournament_selection fitness rank (tour q : nat) ds :
  valid_draws ds -> (tour <= length fitness)%nat ->
  py_tournament_selection fitness rank (Z.of_nat tour) (Z.of_nat q) ds = tournament_selection fitness tour q ds.
Proof.
  intros Hv Ht. unfold py_tournament_selection. cbv zeta.
  rewrite bind_ret_r, for_range_0, zerosZ_nat, <- (bind_ret_r (tournament_selection fitness tour q)).
  apply (for_idx_fill valid_draws (random_sample (Z.of_nat (length fitness)) tour false)
           (fun t => nth (argmax (gatherQ fitness t)) t 0) (tournament_selection fitness tour) _)
    with (acc := []) (rest := repeat 0 q); auto using repeat_length.
  - intros. eapply random_sample_suffix; eauto.
  - intros j s ds0 Hv0. apply bind_congr; [apply code_random_sample; right; unfold zlen; lia|].
    intros t ds1 E. destruct (random_sample_spec _ _ _ _ _ _ Hv0 E) as (_ & Hrange & _). cbv zeta.
    rewrite gatherQz_nonneg by (eapply Forall_impl; [|exact Hrange]; simpl; intros; lia).
    unfold argmaxZ. now rewrite getZ_nat.
  - intros. apply bind_assoc.
Qed.

Lemma for_down_sattolo {A} (d : A) : forall (i : nat) (arr : list A) ds, valid_draws ds ->
  for_down_nat i (Z.of_nat i) (fun i0 shuffled_arr =>
      bind popU (fun r_1 =>
        let j := Qfloor' (r_1 * ZtoQ i0)%Q in
        let v_2 := getA d shuffled_arr j in
        let v_3 := getA d shuffled_arr i0 in
        let shuffled_arr := setA shuffled_arr i0 v_2 in
        let shuffled_arr := setA shuffled_arr j v_3 in
        ret shuffled_arr)) arr ds
  = sattolo_loop d i arr ds.
Proof.
  induction i as [|i IH]; intros arr ds Hv; [reflexivity|].
  cbn [for_down_nat sattolo_loop]. rewrite bind_assoc. apply bind_congr; [reflexivity|].
  intros u ds' E. apply popU_inv in E as (_ & Hu0 & Hu1 & Hv'); [|exact Hv].
  cbv zeta. rewrite bind_app, ret_app.
  assert (Hj : 0 <= Qfloor' (u * ZtoQ (Z.of_nat (Datatypes.S i)))).
  { unfold ZtoQ. apply (Qfloor'_bounds u (Z.of_nat (Datatypes.S i)) Hu0 Hu1). lia. }
  rewrite (getA_nonneg _ _ _ Hj), getA_nat, setA_nat, (setA_nonneg _ _ _ Hj).
  replace (Z.of_nat (Datatypes.S i) - 1) with (Z.of_nat i) by lia.
  rewrite IH by exact Hv'. unfold swap, ZtoQ. reflexivity.
Qed.

Theorem code_sattolo_shuffle arr ds : valid_draws ds ->
  py_sattolo_shuffle arr ds = sattolo 0 arr ds.
Proof.
  intro Hv. unfold py_sattolo_shuffle, sattolo. cbv zeta. rewrite bind_ret_r. unfold for_down.
  destruct arr as [|a arr]; [reflexivity|]. unfold zlen. cbn [length]. rewrite Nat.sub_succ, Nat.sub_0_r.
  replace (Z.of_nat (Datatypes.S (length arr)) - 1) with (Z.of_nat (length arr)) by lia.
  rewrite Z.sub_0_r, Nat2Z.id. exact (for_down_sattolo 0 (length arr) (a :: arr) ds Hv).
Qed.

Lemma nth_map_Zofnat l i : nth i (map Z.of_nat l) 0 = Z.of_nat (nth i l O).
Proof. change 0 with (Z.of_nat 0). apply map_nth. Qed.

Lemma find_max_inner (a : list Q) : forall (n j : nat) mx (mid : nat),
  snd (for_nat_p n (Z.of_nat j)
         (fun j0 '(max_, max_id) =>
            let '(max_, max_id) := if Qltb max_ (getQ a j0) then (getQ a j0, j0) else (max_, max_id) in
            (max_, max_id))
         (mx, Z.of_nat mid))
  = Z.of_nat (find_max_from a j n mx mid).
Proof.
  induction n as [|n IH]; intros j mx mid; [reflexivity|].
  cbn [for_nat_p find_max_from]. rewrite getQ_nat.
  replace (Z.of_nat j + 1) with (Z.of_nat (Datatypes.S j)) by lia.
  destruct (Qltb mx (nth j a 0%Q)); apply IH.
Qed.

Definition argsort_step (n : nat) (i0 : Z) (array_copy : list Q) (to_return : list Z) : list Q * list Z :=
       let max_ := getQ array_copy i0 in
       let max_id := i0 in
       let '(max_, max_id) := for_range_p i0 (Z.of_nat n) (max_, max_id)
           (fun j '(max_, max_id) =>
              let '(max_, max_id) := if Qltb max_ (getQ array_copy j) then (getQ array_copy j, j) else (max_, max_id) in
              (max_, max_id)) in
       let v_1 := getQ array_copy max_id in
       let v_2 := getQ array_copy i0 in
       let array_copy := setA array_copy i0 v_1 in
       let array_copy := setA array_copy max_id v_2 in
       let v_3 := getZ to_return max_id in
       let v_4 := getZ to_return i0 in
       let to_return := setA to_return i0 v_3 in
       let to_return := setA to_return max_id v_4 in
       (array_copy, to_return).

Lemma argsort_step_eq (ac : list Q) (idx : list nat) (i : nat) :
  argsort_step (length ac) (Z.of_nat i) ac (map Z.of_nat idx)
  = (swap 0%Q ac i (find_max_from ac i (length ac - i) (nth i ac 0%Q) i),
     map Z.of_nat (swap O idx i (find_max_from ac i (length ac - i) (nth i ac 0%Q) i))).
Proof.
  unfold argsort_step. cbv zeta. unfold for_range_p.
  replace (Z.to_nat (Z.of_nat (length ac) - Z.of_nat i)) with (length ac - i)%nat by lia.
  pose proof (find_max_inner ac (length ac - i) i (getQ ac (Z.of_nat i)) i) as Hin.
  destruct (for_nat_p (length ac - i) (Z.of_nat i) _ _) as [mx' mid'].
  cbn [snd] in Hin. subst mid'.
  rewrite !getQ_nat, !getZ_nat, !setA_nat, !nth_map_Zofnat, !upd_map. reflexivity.
Qed.

Lemma argsort_outer (n : nat) (body : Z -> list Q * list Z -> list Q * list Z) :
  (forall i0 ac tr, body i0 (ac, tr) = argsort_step n i0 ac tr) ->
  forall (k i : nat) (ac : list Q) (idx : list nat), length ac = n ->
  snd (for_nat_p k (Z.of_nat i) body (ac, map Z.of_nat idx)) = map Z.of_nat (argsort_k_loop k i ac idx).
Proof.
  intro Hb. induction k as [|k IH]; intros i ac idx Hlen; [reflexivity|].
  cbn [for_nat_p argsort_k_loop]. rewrite Hb. subst n. rewrite argsort_step_eq.
  replace (Z.of_nat i + 1) with (Z.of_nat (Datatypes.S i)) by lia.
  apply IH. unfold swap. now rewrite !upd_length.
Qed.

Theorem code_argsort_k a (k : nat) : py_argsort_k a (Z.of_nat k) = map Z.of_nat (argsort_k a k).
Proof.
  unfold py_argsort_k, argsort_k. cbv zeta. unfold for_range_p at 1.
  rewrite Z.sub_0_r, Nat2Z.id.
  assert (Har : arange (zlen a) = map Z.of_nat (seq 0 (length a))).
  { unfold arange, zlen. now rewrite Nat2Z.id. }
  rewrite Har. unfold zlen.
  match goal with |- (let '(_, to_return) := for_nat_p k 0 ?b ?s in to_return) = _ =>
    change (snd (for_nat_p k (Z.of_nat 0) b s) = map Z.of_nat (argsort_k_loop k 0 a (seq 0 (length a)))) end.
  apply (argsort_outer (length a)); [|reflexivity].
  intros i0 ac tr. reflexivity.
Qed.

Lemma pbest_count_eq q : Z.max 1 (Qtrunc q) = Z.of_nat (Nat.max 1 (Z.to_nat (Qfloor' q))).
Proof.
  unfold Qtrunc, Qfloor'. destruct q as [num den]. cbn [Qnum Qden].
  destruct (Z_lt_le_dec num 0) as [Hneg|Hpos].
  - assert (Z.quot num (Z.pos den) <= 0) by (apply Z.quot_le_upper_bound; lia).
    assert (num / Z.pos den < 0) by (apply Z.div_lt_upper_bound; lia).
    lia.
  - rewrite Z.quot_div_nonneg by lia.
    assert (0 <= num / Z.pos den) by (apply Z.div_pos; lia). lia.
Qed.

Theorem code_find_pbest_id a p : py_find_pbest_id a p = map Z.of_nat (find_pbest_id a p).
Proof.
  unfold py_find_pbest_id, find_pbest_id, pbest_count. cbv zeta.
  unfold ZtoQ, zlen. rewrite pbest_count_eq.
  set (c := Nat.max 1 (Z.to_nat (Qfloor' (p * inject_Z (Z.of_nat (length a)))))).
  rewrite code_argsort_k. unfold sliceTo. rewrite pyidx_nat. apply firstn_map.
Qed.

(* minmax_scale (utils/transformations.py) is plain numpy, translated with the same reading *)
Theorem code_minmax_scale l : py_minmax_scale l = minmax_scale l.
Proof.
  unfold py_minmax_scale, minmax_scale. cbv zeta.
  destruct (Qeq_bool (Qmax_list l) (Qmin_list l)).
  - unfold onesQ, zlen. rewrite Nat2Z.id. induction l as [|x t IH]; simpl; [reflexivity|]. now rewrite IH.
  - unfold vdivs, vsubs. rewrite map_map. reflexivity.
Qed.
