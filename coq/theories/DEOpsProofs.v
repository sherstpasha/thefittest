(* DEOpsProofs.v — theorems about the DE operators (C07). *)
From TF Require Import Base QSum RandomPrims RandomPrimsProofs RandomPrimsProofs2 DEOps.
Open Scope Q_scope.

(* DEOps writes the clip, the coin loop and the binomial crossover over Q; the shared lemmas are about these twins *)
Lemma clamp1_is_clip x l r : clamp1 x l r = clip l r x.
Proof. reflexivity. Qed.
Lemma qcoins_is_flips : qcoins = flips.
Proof. reflexivity. Qed.
Lemma binomial_is_gen : binomial = binomial_gen 0.
Proof. reflexivity. Qed.

Lemma vbuild_length n f : length (vbuild n f) = n.
Proof. unfold vbuild. now rewrite map_length, seq_length. Qed.
Lemma vbuild_nth n f i : (i < n)%nat -> vnth (vbuild n f) i = f i.
Proof. apply map_seq_nth. Qed.

Definition box_ok (l r : vec) : Prop :=
  length r = length l /\ forall i, (i < length l)%nat -> vnth l i <= vnth r i.

Theorem clamp_in_box a l r : box_ok l r -> length a = length l -> in_box l r (bounds_control a l r).
Proof.
  intros (Hlr & Hle) Hla. unfold in_box, bounds_control. rewrite vbuild_length. split; [auto|].
  intros i Hi. rewrite vbuild_nth, clamp1_is_clip by lia. apply clip_range. apply Hle; auto.
Qed.

Theorem clamp_minimal a l r i : (i < length a)%nat ->
  vnth l i <= vnth a i -> vnth a i <= vnth r i -> vnth (bounds_control a l r) i = vnth a i.
Proof.
  intros Hi H1 H2. unfold bounds_control. rewrite vbuild_nth, clamp1_is_clip by auto.
  destruct (clip_cases (vnth l i) (vnth r i) (vnth a i)) as [(? & _)|[(_ & ? & _)|(_ & _ & E)]]; [lra|lra|exact E].
Qed.

Theorem clamp_length a l r : length (bounds_control a l r) = length a.
Proof. apply vbuild_length. Qed.

Lemma mean1_in x p l r : l <= p -> p <= r -> l <= mean1 x p l r /\ mean1 x p l r <= r.
Proof.
  intros H1 H2. unfold mean1. destruct (Qltb x l) eqn:E1.
  - split; [apply Qle_shift_div_l|apply Qle_shift_div_r]; lra.
  - destruct (Qltb r x) eqn:E2.
    + split; [apply Qle_shift_div_l|apply Qle_shift_div_r]; lra.
    + apply Qltb_ge in E1, E2. lra.
Qed.

Theorem mean_in_box a parent l r : length a = length l -> in_box l r parent ->
  in_box l r (bounds_control_mean a parent l r).
Proof.
  intros Hla (Hpl & Hp). unfold in_box, bounds_control_mean. rewrite vbuild_length. split; [auto|].
  intros i Hi. rewrite vbuild_nth by lia. destruct (Hp i Hi). now apply mean1_in.
Qed.

Lemma mean1_id x p l r : l <= x -> x <= r -> mean1 x p l r = x.
Proof.
  intros H1 H2. unfold mean1.
  destruct (Qltb x l) eqn:E1; [apply Qltb_lt in E1; lra|].
  destruct (Qltb r x) eqn:E2; [apply Qltb_lt in E2; lra|]. reflexivity.
Qed.

Theorem mean_minimal a parent l r i : (i < length a)%nat ->
  vnth l i <= vnth a i -> vnth a i <= vnth r i -> vnth (bounds_control_mean a parent l r) i = vnth a i.
Proof. intros Hi H1 H2. unfold bounds_control_mean. rewrite vbuild_nth by auto. now apply mean1_id. Qed.

Lemma qcoins_length p : forall n ds cs ds', qcoins p n ds = Some (cs, ds') -> length cs = n.
Proof. rewrite qcoins_is_flips. exact (flips_length p). Qed.

Lemma binomial_length individ mutant CR ds child ds' :
  binomial individ mutant CR ds = Some (child, ds') -> length child = length individ.
Proof. intros H. unfold binomial in H. minv H. apply vbuild_length. Qed.

Lemma current_to_pbest_length cur pop pbest F archive ds d ds' :
  current_to_pbest cur pop pbest F archive ds = Some (d, ds') -> length d = length cur.
Proof. intro H. unfold current_to_pbest in H. minv H. apply vbuild_length. Qed.

Theorem donor_formula code cur best pop F ds d ds' :
  valid_draws ds -> de_mutation code cur best pop F ds = Some (d, ds') ->
  exists rs, length rs = n_indices code /\ NoDup rs /\
    Forall (fun v => (0 <= v < Z.of_nat (length pop))%Z) rs /\ d = donor_of code cur best pop F rs.
Proof.
  intros Hv H. unfold de_mutation, sample_distinct in H. minv H.
  destruct (random_sample_spec _ _ _ _ _ _ Hv E) as (Hl & Hr & Hnd).
  exists l. repeat split; auto.
Qed.

Theorem donor_coordinates cur best pop F rs i :
  let p k := row_of pop (idx rs k) in
  (i < length best)%nat -> (i < length cur)%nat ->
  (forall k, (i < length (p k))%nat) ->
  vnth (donor_of 0 cur best pop F rs) i = vnth best i + F * (vnth (p 0%nat) i - vnth (p 1%nat) i) /\
  vnth (donor_of 1 cur best pop F rs) i = vnth (p 2%nat) i + F * (vnth (p 0%nat) i - vnth (p 1%nat) i) /\
  vnth (donor_of 2 cur best pop F rs) i =
    vnth (p 0%nat) i + F * (vnth best i - vnth (p 0%nat) i) + F * (vnth (p 1%nat) i - vnth (p 2%nat) i) /\
  vnth (donor_of 3 cur best pop F rs) i =
    vnth cur i + F * (vnth best i - vnth cur i) + F * (vnth (p 0%nat) i - vnth (p 1%nat) i) /\
  vnth (donor_of 4 cur best pop F rs) i =
    vnth best i + F * (vnth (p 0%nat) i - vnth (p 1%nat) i) + F * (vnth (p 2%nat) i - vnth (p 3%nat) i) /\
  vnth (donor_of 5 cur best pop F rs) i =
    vnth (p 4%nat) i + F * (vnth (p 0%nat) i - vnth (p 1%nat) i) + F * (vnth (p 2%nat) i - vnth (p 3%nat) i).
Proof.
  intros p Hb Hc Hp. unfold donor_of, lin3, lin5. fold p.
  repeat split; rewrite vbuild_nth; auto; apply Hp.
Qed.

(* one trial: always inside the box, whatever the donor, F and CR *)
Theorem trial_in_box (donor : M vec) cur CR l r ds t ds' :
  box_ok l r -> length cur = length l ->
  bind donor (fun m => bind (binomial cur m CR) (fun c => ret (bounds_control c l r))) ds = Some (t, ds') -> in_box l r t.
Proof.
  intros Hb Hc H. minv H. apply clamp_in_box; auto. now rewrite (binomial_length _ _ _ _ _ _ E0).
Qed.

Theorem shade_trial_in_box cur pop pbest F CR archive l r ds t ds' :
  in_box l r cur ->
  shade_new_individ cur pop pbest F CR archive l r ds = Some (t, ds') -> in_box l r t.
Proof.
  intros Hc H. unfold shade_new_individ in H. minv H.
  apply mean_in_box; auto. rewrite (binomial_length _ _ _ _ _ _ E0). destruct Hc; auto.
Qed.

Theorem de_repair_minimal c l r i : (i < length c)%nat ->
  vnth l i <= vnth c i -> vnth c i <= vnth r i -> vnth (bounds_control c l r) i = vnth c i.
Proof. apply clamp_minimal. Qed.

Theorem select_in_box l r : forall mask trials pop,
  Forall (in_box l r) trials -> Forall (in_box l r) pop -> Forall (in_box l r) (select mask trials pop).
Proof.
  induction mask as [|m ms IH]; intros trials pop Ht Hp; cbn [select]; auto.
  destruct trials as [|t ts]; auto. destruct pop as [|p ps]; auto.
  inversion Ht; inversion Hp; subst. constructor; [destruct m; auto|]. apply IH; auto.
Qed.

Lemma select_length {A} : forall mask (trials pop : list A), length (select mask trials pop) = length pop.
Proof.
  induction mask as [|m ms IH]; intros trials pop; cbn [select]; auto.
  destruct trials; auto. destruct pop; auto. simpl. f_equal. apply IH.
Qed.

(* a generation, as far as the box goes: ANY trials in the box replace members where the mask says so and, with
   elitism, the last slot is overwritten by ANY vector in the box.  de_step does not say that the trials come from
   de_new_individ nor that [best] is a member; trial_in_box / shade_trial_in_box show that such trials are in the box. *)
Inductive de_step (l r : vec) : list vec -> list vec -> Prop :=
| de_step_intro pop trials mask best :
    Forall (in_box l r) trials -> in_box l r best ->
    de_step l r pop (let p := select mask trials pop in p)
| de_step_elit pop trials mask best :
    Forall (in_box l r) trials -> in_box l r best ->
    de_step l r pop (let p := select mask trials pop in removelast p ++ [best]).

Inductive de_run (l r : vec) : list vec -> list vec -> Prop :=
| de_run_nil pop : de_run l r pop pop
| de_run_cons pop pop1 pop2 : de_step l r pop pop1 -> de_run l r pop1 pop2 -> de_run l r pop pop2.

Theorem run_in_box l r pop pop' : de_run l r pop pop' -> Forall (in_box l r) pop -> Forall (in_box l r) pop'.
Proof.
  induction 1 as [|pop pop1 pop2 Hs Hr IH]; intros Hp; auto. apply IH.
  destruct Hs as [pop trials mask best Ht Hb|pop trials mask best Ht Hb]; cbv zeta.
  - apply select_in_box; auto.
  - apply Forall_app. split; [|constructor; auto].
    apply Forall_removelast. apply select_in_box; auto.
Qed.
