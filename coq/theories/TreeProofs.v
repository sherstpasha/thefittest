(* TreeProofs.v — the index helpers of TreeIdx.v refine the recursive definitions of Tree.v,
   for ALL well-formed trees (nested induction, no bound). *)
From Coq Require Import List Arith Bool Lia.
Import ListNotations.
From TF Require Import Tree TreeIdx.

Lemma ltb_true a b : a < b -> (a <? b) = true.
Proof. apply Nat.ltb_lt. Qed.
Lemma ltb_false a b : b <= a -> (a <? b) = false.
Proof. apply Nat.ltb_ge. Qed.

Lemma skipn_skipn' {A} (l : list A) x y : skipn x (skipn y l) = skipn (y + x) l.
Proof.
  revert l; induction y as [|y IH]; intros l; simpl; auto.
  destruct l; simpl; auto. destruct x; reflexivity.
Qed.

Lemma nth_error_skipn_cons {A} (l : list A) n x :
  nth_error l n = Some x -> skipn n l = x :: skipn (S n) l.
Proof.
  revert l; induction n as [|n IH]; intros [|h t] H; try discriminate.
  - inversion H; reflexivity.
  - exact (IH t H).
Qed.
Lemma skipn_nth_cons {A} (l : list A) i d : i < length l -> skipn i l = nth i l d :: skipn (S i) l.
Proof. intros H. apply nth_error_skipn_cons, nth_error_nth', H. Qed.
Lemma nth_error_split_at {A} (l : list A) n x :
  nth_error l n = Some x -> l = firstn n l ++ x :: skipn (S n) l.
Proof. intros H. rewrite <- (nth_error_skipn_cons l n x H). symmetry. apply firstn_skipn. Qed.
Lemma nth_error_occ {A} (pre : list A) x rest : nth_error (pre ++ x :: rest) (length pre) = Some x.
Proof. rewrite nth_error_app2, Nat.sub_diag by lia. reflexivity. Qed.
Lemma Forall_nth_error {A} (P : A -> Prop) l n x : Forall P l -> nth_error l n = Some x -> P x.
Proof. intros F H. exact (proj1 (Forall_forall P l) F x (nth_error_In l n H)). Qed.

Lemma skipn_app_len {A} (l1 l2 : list A) : skipn (length l1) (l1 ++ l2) = l2.
Proof. induction l1; simpl; auto. Qed.
Lemma firstn_app_len {A} (l1 l2 : list A) : firstn (length l1) (l1 ++ l2) = l1.
Proof. induction l1; simpl; auto; f_equal; auto. Qed.
Lemma skipn_app_plus {A} (l1 l2 : list A) n : skipn (length l1 + n) (l1 ++ l2) = skipn n l2.
Proof. induction l1; simpl; auto. Qed.

Lemma all_eqb_same : forall (l : list nat) x y, all_eqb l = true -> In x l -> In y l -> x = y.
Proof.
  intros [|a l] x y H Hx Hy; [destruct Hx|]. simpl in H. rewrite forallb_forall in H.
  assert (E : forall z, In z (a :: l) -> z = a).
  { intros z [<-|Hz]; auto. apply H in Hz. apply Nat.eqb_eq in Hz. auto. }
  rewrite (E x Hx), (E y Hy). reflexivity.
Qed.

Lemma walk_0 l : walk 0 l = Some 0.
Proof. destruct l; reflexivity. Qed.

Lemma option_map_plus_S (n : nat) (x : option nat) :
  option_map (Nat.add (S n)) x = option_map (Nat.add n) (option_map S x).
Proof. destruct x; simpl; auto; f_equal; lia. Qed.

Section Proofs.
  Context {sym : Type}.
  Variable arity : sym -> nat.
  Notation tree := (tree sym).
  Notation nargs := (nargs arity).
  Notation wft := (wft arity).
  Notation wff := (wff arity).

  Lemma tree_forest_ind (P : tree -> Prop) (Q : list tree -> Prop) :
    (forall s kids, Q kids -> P (Node s kids)) -> Q [] -> (forall t ts, P t -> Q ts -> Q (t :: ts)) ->
    (forall t, P t) /\ (forall ts, Q ts).
  Proof. intros HN H0 HC. split; [exact (tree_ind2 P Q HN H0 HC) | exact (forest_ind2 P Q HN H0 HC)]. Qed.

  Lemma flats_cons (t : tree) ts : flats (t :: ts) = flatten t ++ flats ts.
  Proof. reflexivity. Qed.
  Lemma flats_app (a b : list tree) : flats (a ++ b) = flats a ++ flats b.
  Proof. apply flat_map_app. Qed.
  Lemma flats_singleton (t : tree) : flats [t] = flatten t.
  Proof. apply app_nil_r. Qed.
  Lemma in_flats x (ts : list tree) : In x (flats ts) <-> exists k, In k ts /\ In x (flatten k).
  Proof. apply in_flat_map. Qed.
  Lemma sizes_nil : sizes (@nil tree) = 0.
  Proof. reflexivity. Qed.
  Lemma sizes_cons (t : tree) ts : sizes (t :: ts) = size t + sizes ts.
  Proof. reflexivity. Qed.
  Lemma sizes_app (a b : list tree) : sizes (a ++ b) = sizes a + sizes b.
  Proof. unfold sizes. rewrite map_app. apply list_sum_app. Qed.
  Lemma sizes_singleton (t : tree) : sizes [t] = size t.
  Proof. apply Nat.add_0_r. Qed.
  Lemma flatten_Node s (kids : list tree) : flatten (Node s kids) = s :: flats kids.
  Proof. reflexivity. Qed.
  Lemma size_Node s (kids : list tree) : size (Node s kids) = S (sizes kids).
  Proof. reflexivity. Qed.
  Lemma sizes_children (t : tree) : S (sizes (children t)) = size t.
  Proof. destruct t; reflexivity. Qed.
  Lemma wft_Node s (kids : list tree) :
    wft (Node s kids) = true <-> length kids = arity s /\ wff kids = true.
  Proof.
    simpl. rewrite andb_true_iff, Nat.eqb_eq. reflexivity.
  Qed.
  Lemma wff_cons (t : tree) ts : wff (t :: ts) = true <-> wft t = true /\ wff ts = true.
  Proof. apply andb_true_iff. Qed.
  Lemma wff_app (a b : list tree) : wff (a ++ b) = wff a && wff b.
  Proof. apply forallb_app. Qed.
  Lemma wff_Forall (ts : list tree) : wff ts = true <-> Forall (fun k => wft k = true) ts.
  Proof. unfold Tree.wff. rewrite forallb_forall, Forall_forall. reflexivity. Qed.
  Lemma wff_singleton (t : tree) : wff [t] = wft t.
  Proof. apply andb_true_r. Qed.
  Lemma wft_children (t : tree) : wft t = true ->
    length (children t) = arity (root t) /\ Forall (fun k => wft k = true) (children t).
  Proof. destruct t as [s kids]. rewrite wft_Node, wff_Forall. auto. Qed.
  Lemma same_arity (ts : list tree) t0 : Forall (fun t => wft t = true) ts ->
    all_eqb (map (fun t => arity (root t)) ts) = true -> In t0 ts ->
    forall t, In t ts -> length (children t) = arity (root t0).
  Proof.
    intros W A H0 t Ht. destruct (wft_children t (proj1 (Forall_forall _ _) W t Ht)) as [L _]. rewrite L.
    apply (all_eqb_same _ _ _ A); apply in_map_iff; eauto.
  Qed.
  Lemma nargs_app a b : nargs (a ++ b) = nargs a ++ nargs b.
  Proof. apply map_app. Qed.
  Lemma nargs_length a : length (nargs a) = length a.
  Proof. apply map_length. Qed.
  (* one step of the pre-order walk over a work list: the head node, then its arguments, then the rest *)
  Lemma nargs_flats_Node_cons s (k r : list tree) :
    nargs (flats (Node s k :: r)) = arity s :: nargs (flats (k ++ r)).
  Proof. rewrite flats_cons, flatten_Node, flats_app. reflexivity. Qed.

  Lemma flatten_flats_length :
    (forall t : tree, length (flatten t) = size t) /\ (forall ts : list tree, length (flats ts) = sizes ts).
  Proof.
    apply tree_forest_ind.
    - intros s kids H. rewrite flatten_Node, size_Node. simpl. congruence.
    - reflexivity.
    - intros t ts Ht Hts. rewrite flats_cons, sizes_cons, app_length. congruence.
  Qed.
  Lemma flatten_length (t : tree) : length (flatten t) = size t.
  Proof. apply flatten_flats_length. Qed.
  Lemma flats_length (ts : list tree) : length (flats ts) = sizes ts.
  Proof. apply flatten_flats_length. Qed.
  Lemma size_pos (t : tree) : 1 <= size t.
  Proof. destruct t; simpl; lia. Qed.

  Lemma flats_nth (ts : list tree) m k : nth_error ts m = Some k ->
    flats ts = flats (firstn m ts) ++ flatten k ++ flats (skipn (S m) ts).
  Proof. intros H. rewrite (nth_error_split_at ts m k H) at 1. apply flats_app. Qed.

  Lemma kid_occ s (kids : list tree) m k (pre post : list sym) : nth_error kids m = Some k ->
    pre ++ flatten (Node s kids) ++ post
    = (pre ++ s :: flats (firstn m kids)) ++ flatten k ++ (flats (skipn (S m) kids) ++ post) /\
    length (pre ++ s :: flats (firstn m kids)) = S (length pre) + sizes (firstn m kids).
  Proof.
    intros H. split.
    - rewrite flatten_Node, (flats_nth kids m k H), <- !app_assoc. simpl. rewrite <- !app_assoc. reflexivity.
    - rewrite app_length. simpl. rewrite flats_length. lia.
  Qed.

  Lemma child_starts_nth : forall (kids : list tree) o m,
    nth_error (child_starts o kids) m = option_map (fun _ => o + sizes (firstn m kids)) (nth_error kids m).
  Proof.
    induction kids as [|k r IH]; intros o [|m]; simpl; try reflexivity.
    - rewrite sizes_nil, Nat.add_0_r. reflexivity.
    - rewrite IH, sizes_cons. destruct (nth_error r m); simpl; f_equal. lia.
  Qed.

  Lemma depth_Node_cons s (k : tree) r : depth (Node s (k :: r)) = Nat.max (S (depth k)) (depth (Node s r)).
  Proof. reflexivity. Qed.
  Lemma depth_Node_max s (kids : list tree) : depth (Node s kids) = list_max (map (fun k => S (depth k)) kids).
  Proof. induction kids as [|k r IH]; [reflexivity|]. rewrite depth_Node_cons, IH. reflexivity. Qed.
  Lemma depth_Node_app s (a b : list tree) :
    depth (Node s (a ++ b)) = Nat.max (depth (Node s a)) (depth (Node s b)).
  Proof. rewrite !depth_Node_max, map_app. apply list_max_app. Qed.
  Lemma depth_Node_le s (kids : list tree) d :
    depth (Node s kids) <= d <-> Forall (fun k => S (depth k) <= d) kids.
  Proof. rewrite depth_Node_max, list_max_le, Forall_map. reflexivity. Qed.
  Lemma child_depth_lt (t k : tree) : In k (children t) -> depth k < depth t.
  Proof.
    destruct t as [s kids]. intros H.
    exact (proj1 (Forall_forall _ _) (proj1 (depth_Node_le s kids _) (le_n _)) k H).
  Qed.

  Lemma walk_wf_forest :
    (forall t : tree, wft t = true -> forall k rest,
      walk (S k) (nargs (flatten t) ++ rest) = option_map (Nat.add (size t)) (walk k rest)) /\
    (forall ts : list tree, wff ts = true -> forall k rest,
      walk (length ts + k) (nargs (flats ts) ++ rest) = option_map (Nat.add (sizes ts)) (walk k rest)).
  Proof.
    apply tree_forest_ind.
    - intros s kids IH Hwf k rest. apply wft_Node in Hwf. destruct Hwf as [Hlen Hk].
      rewrite flatten_Node, size_Node. simpl.
      rewrite <- Hlen, (Nat.add_comm k), (IH Hk).
      destruct (walk k rest); reflexivity.
    - intros _ k rest. simpl. destruct (walk k rest); reflexivity.
    - intros t ts IHt IHts Hwf k rest. apply wff_cons in Hwf. destruct Hwf as [Ht Hts].
      rewrite flats_cons, nargs_app, <- app_assoc, sizes_cons. simpl length.
      change (S (length ts) + k) with (S (length ts + k)).
      rewrite (IHt Ht), (IHts Hts).
      destruct (walk k rest); simpl; auto. f_equal; lia.
  Qed.
  Lemma walk_wf (t : tree) : wft t = true -> forall k rest,
    walk (S k) (nargs (flatten t) ++ rest) = option_map (Nat.add (size t)) (walk k rest).
  Proof. apply walk_wf_forest. Qed.

  Lemma walk_forest :
    forall ts : list tree, wff ts = true -> forall k rest,
      walk (length ts + k) (nargs (flats ts) ++ rest) = option_map (Nat.add (sizes ts)) (walk k rest).
  Proof. exact (proj2 walk_wf_forest). Qed.

  Lemma walk_bounds : forall l steps c, walk steps l = Some c -> c <= length l /\ (0 < steps -> 0 < c).
  Proof.
    induction l as [|x l IH]; intros [|s] c H; simpl in H; try discriminate.
    - inversion H; lia.
    - inversion H; lia.
    - destruct (walk (s + x) l) eqn:E; simpl in H; try discriminate. inversion H; subst.
      apply IH in E. simpl. lia.
  Qed.

  (* the index-based loop of the code is the suffix walk *)
  Lemma find_end_loop_walk : forall fuel a n steps, length a - n <= fuel ->
    find_end_loop fuel a n steps = option_map (Nat.add n) (walk steps (skipn n a)).
  Proof.
    induction fuel as [|f IH]; intros a n steps Hf.
    - destruct steps; simpl.
      + rewrite walk_0. simpl. f_equal; lia.
      + rewrite skipn_all2 by lia. reflexivity.
    - destruct steps; simpl.
      + rewrite walk_0. simpl. f_equal; lia.
      + destruct (nth_error a n) eqn:E.
        * rewrite (nth_error_skipn_cons _ _ _ E). rewrite IH.
          -- apply option_map_plus_S.
          -- assert (n < length a) by (apply nth_error_Some; congruence). lia.
        * apply nth_error_None in E. rewrite skipn_all2 by lia. reflexivity.
  Qed.

  Lemma find_end_walk a i :
    find_end a i = option_map (Nat.add i) (walk 1 (skipn i a)).
  Proof.
    unfold find_end. destruct (nth_error a i) eqn:E.
    - rewrite (nth_error_skipn_cons _ _ _ E). simpl.
      rewrite find_end_loop_walk by lia. apply option_map_plus_S.
    - apply nth_error_None in E. rewrite skipn_all2 by lia. reflexivity.
  Qed.

  Lemma find_end_bounds a i e : find_end a i = Some e -> i < e <= length a.
  Proof.
    rewrite find_end_walk. destruct (walk 1 (skipn i a)) eqn:E; simpl; intro H; inversion H; subst.
    apply walk_bounds in E. rewrite skipn_length in E. lia.
  Qed.
  Lemma find_end_none_out (a : list nat) i : length a <= i -> find_end a i = None.
  Proof. intros H. unfold find_end. rewrite (proj2 (nth_error_None a i) H). reflexivity. Qed.
  Lemma find_args_bound (a : list nat) i r : find_args a i = Some r -> i < length a.
  Proof. unfold find_args. intros H. apply nth_error_Some. destruct (nth_error a i); congruence. Qed.

  (* the counter walk started at the root of an encoded sub-term stops exactly behind it, in ANY
     array that holds the arities of the sub-term at that place; fuel = length of the array
     suffices (it is what find_end passes) *)
  Lemma find_end_occ (t : tree) (pre rest : list nat) : wft t = true ->
    find_end (pre ++ nargs (flatten t) ++ rest) (length pre) = Some (length pre + size t).
  Proof.
    intros W. rewrite find_end_walk, skipn_app_len, (walk_wf t W 0 rest), walk_0. simpl. f_equal. lia.
  Qed.

  Theorem find_end_flat : forall (t : tree) pre rest, wft t = true ->
    find_end (nargs (pre ++ flatten t ++ rest)) (length pre) = Some (length pre + size t).
  Proof.
    intros t pre rest Hwf. rewrite !nargs_app, <- (nargs_length pre). apply find_end_occ, Hwf.
  Qed.
  Corollary find_end_flat0 : forall (t : tree) rest, wft t = true ->
    find_end (nargs (flatten t ++ rest)) 0 = Some (size t).
  Proof. intros t rest H. apply (find_end_flat t [] rest H). Qed.

  Lemma slice_mid {A} (pre mid post : list A) :
    slice (pre ++ mid ++ post) (length pre) (length pre + length mid) = mid.
  Proof.
    unfold slice. rewrite skipn_app_len.
    replace (length pre + length mid - length pre) with (length mid) by lia.
    apply firstn_app_len.
  Qed.
  Lemma splice_mid {A} (pre mid post m : list A) :
    splice (pre ++ mid ++ post) (length pre) (length pre + length mid) m = pre ++ m ++ post.
  Proof.
    unfold splice. rewrite firstn_app_len, skipn_app_plus, skipn_app_len. reflexivity.
  Qed.
  Lemma splice_slice_id {A} (l : list A) i e : i <= e ->
    splice l i e (slice l i e) = l.
  Proof.
    intros H. unfold splice, slice.
    replace (skipn e l) with (skipn (e - i) (skipn i l)).
    - rewrite firstn_skipn, firstn_skipn. reflexivity.
    - rewrite skipn_skipn'. f_equal. lia.
  Qed.

  Lemma subtree_occ (k : tree) pre post : wft k = true ->
    subtree arity (pre ++ flatten k ++ post) (length pre) = Some (flatten k).
  Proof.
    intros W. unfold subtree. rewrite (find_end_flat k pre post W). simpl.
    rewrite <- flatten_length, slice_mid. reflexivity.
  Qed.
  Lemma concat_occ (k : tree) pre post q : wft k = true ->
    concat arity (pre ++ flatten k ++ post) (length pre) q = Some (pre ++ q ++ post).
  Proof.
    intros W. unfold concat. rewrite (find_end_flat k pre post W). simpl.
    rewrite <- flatten_length, splice_mid. reflexivity.
  Qed.

  Definition level_at_f : list tree -> nat -> nat :=
    fix go (l : list tree) (j : nat) : nat :=
      match l with
      | [] => 0
      | k :: r => if j <? size k then S (level_at k j) else go r (j - size k)
      end.

  Lemma sub_at_Node s (kids : list tree) j : sub_at (Node s kids) (S j) = sub_at_f kids j.
  Proof. reflexivity. Qed.
  Lemma replace_at_Node s (kids : list tree) j u :
    replace_at (Node s kids) (S j) u = Node s (replace_at_f u kids j).
  Proof. reflexivity. Qed.
  Lemma level_at_Node s (kids : list tree) j : level_at (Node s kids) (S j) = level_at_f kids j.
  Proof. reflexivity. Qed.
  Lemma sub_at_f_cons (k : tree) r j :
    sub_at_f (k :: r) j = if j <? size k then sub_at k j else sub_at_f r (j - size k).
  Proof. reflexivity. Qed.
  Lemma replace_at_f_cons u (k : tree) r j :
    replace_at_f u (k :: r) j =
    if j <? size k then replace_at k j u :: r else k :: replace_at_f u r (j - size k).
  Proof. reflexivity. Qed.
  Lemma level_at_f_cons (k : tree) r j :
    level_at_f (k :: r) j = if j <? size k then S (level_at k j) else level_at_f r (j - size k).
  Proof. reflexivity. Qed.

  (* a position inside a forest lies in exactly one of its trees: sub-term, level and replacement
     at that position are those of the tree *)
  Lemma forest_pos : forall (ts : list tree) j, j < sizes ts ->
    exists m k j', nth_error ts m = Some k /\ j = sizes (firstn m ts) + j' /\ j' < size k /\
      sub_at_f ts j = sub_at k j' /\ level_at_f ts j = S (level_at k j') /\
      forall v, replace_at_f v ts j = firstn m ts ++ replace_at k j' v :: skipn (S m) ts.
  Proof.
    induction ts as [|t ts IH]; intros j H; [rewrite sizes_nil in H; lia|]. rewrite sizes_cons in H.
    rewrite sub_at_f_cons, level_at_f_cons. destruct (Nat.lt_ge_cases j (size t)) as [C|C].
    - exists 0, t, j. rewrite (ltb_true _ _ C). repeat split; auto.
      intros v. rewrite replace_at_f_cons, (ltb_true _ _ C). reflexivity.
    - destruct (IH (j - size t)) as (m & k & j' & Hn & Ej & Hj & Es & El & Er); [lia|].
      exists (S m), k, j'. rewrite (ltb_false _ _ C). simpl firstn. rewrite sizes_cons.
      repeat split; auto; [lia|].
      intros v. rewrite replace_at_f_cons, (ltb_false _ _ C), Er. reflexivity.
  Qed.
  Lemma sub_at_f_none : forall (ts : list tree) j, sizes ts <= j -> sub_at_f ts j = None.
  Proof.
    induction ts as [|t ts IH]; intros j H; [reflexivity|]. rewrite sizes_cons in H.
    rewrite sub_at_f_cons, ltb_false by lia. apply IH. lia.
  Qed.
  Lemma sub_at_f_inv (ts : list tree) j u : sub_at_f ts j = Some u ->
    exists m k j', nth_error ts m = Some k /\ j = sizes (firstn m ts) + j' /\ j' < size k /\
      sub_at k j' = Some u /\ level_at_f ts j = S (level_at k j') /\
      forall v, replace_at_f v ts j = firstn m ts ++ replace_at k j' v :: skipn (S m) ts.
  Proof.
    intros H. destruct (Nat.lt_ge_cases j (sizes ts)) as [C|C].
    - destruct (forest_pos ts j C) as (m & k & j' & Hn & Ej & Hj & Es & R).
      rewrite Es in H. exists m, k, j'. auto.
    - rewrite (sub_at_f_none ts j C) in H. discriminate.
  Qed.

  Lemma sub_at_some : forall (t : tree) i, i < size t -> exists u, sub_at t i = Some u.
  Proof.
    induction t as [s kids IH] using tree_ind_Forall. intros [|j] H; [eexists; reflexivity|].
    rewrite size_Node in H.
    destruct (forest_pos kids j) as (m & k & j' & Hn & _ & Hj & Es & _); [lia|].
    rewrite sub_at_Node, Es. exact (Forall_nth_error _ _ _ _ IH Hn j' Hj).
  Qed.

  Lemma sub_at_none : forall (t : tree) i, size t <= i -> sub_at t i = None.
  Proof. intros [s kids] [|j] H; rewrite size_Node in H; [lia|]. apply sub_at_f_none. lia. Qed.

  Lemma sub_at_decomp : forall (t : tree) i u, sub_at t i = Some u ->
    exists pre post, flatten t = pre ++ flatten u ++ post /\ length pre = i /\
      forall v, flatten (replace_at t i v) = pre ++ flatten v ++ post.
  Proof.
    induction t as [s kids IH] using tree_ind_Forall. intros [|j] u H.
    - inversion H; subst. exists [], []. simpl. rewrite app_nil_r. repeat split.
      intros v. rewrite app_nil_r. reflexivity.
    - destruct (sub_at_f_inv kids j u H) as (m & k & j' & Hn & -> & _ & Hs & _ & R).
      destruct (Forall_nth_error _ _ _ _ IH Hn j' u Hs) as (pre & post & E & L & R').
      exists (s :: flats (firstn m kids) ++ pre), (post ++ flats (skipn (S m) kids)). split; [|split].
      + rewrite flatten_Node, (flats_nth kids m k Hn), E. simpl. rewrite <- !app_assoc. reflexivity.
      + simpl. rewrite app_length, flats_length. lia.
      + intros v. rewrite replace_at_Node, flatten_Node, R, flats_app, flats_cons, R'. simpl.
        rewrite <- !app_assoc. reflexivity.
  Qed.

  Lemma sub_at_wf : forall (t : tree), wft t = true -> forall i u, sub_at t i = Some u -> wft u = true.
  Proof.
    induction t as [s kids IH] using tree_ind_Forall. intros W [|j] u H.
    - inversion H; subst; exact W.
    - destruct (sub_at_f_inv kids j u H) as (m & k & j' & Hn & _ & _ & Hs & _).
      destruct (wft_children _ W) as [_ Wk].
      exact (Forall_nth_error _ _ _ _ IH Hn (Forall_nth_error _ _ _ _ Wk Hn) j' u Hs).
  Qed.

  Lemma replace_at_wf : forall (t : tree), wft t = true -> forall i v, wft v = true ->
    wft (replace_at t i v) = true.
  Proof.
    induction t as [s kids IH] using tree_ind_Forall. intros W [|j] v Wv; [exact Wv|].
    rewrite replace_at_Node. apply wft_Node in W. destruct W as [L W]. apply wft_Node. rewrite <- L. clear L.
    revert j. induction IH as [|k r Hk _ IHr]; intros j; [split; reflexivity|].
    apply wff_cons in W. destruct W as [Wk Wr]. rewrite replace_at_f_cons. destruct (j <? size k).
    - split; [reflexivity|]. apply wff_cons. auto.
    - destruct (IHr Wr (j - size k)) as [L' W']. split; [simpl; congruence|]. apply wff_cons. auto.
  Qed.

  Theorem subtree_flatten : forall (t : tree) i u, wft t = true -> sub_at t i = Some u ->
    subtree arity (flatten t) i = Some (flatten u).
  Proof.
    intros t i u Hwf Hs. destruct (sub_at_decomp t i u Hs) as (pre & post & -> & <- & _).
    apply subtree_occ. exact (sub_at_wf t Hwf _ u Hs).
  Qed.

  Theorem concat_flatten : forall (t : tree) i u v, wft t = true -> sub_at t i = Some u ->
    concat arity (flatten t) i (flatten v) = Some (flatten (replace_at t i v)).
  Proof.
    intros t i u v Hwf Hs. destruct (sub_at_decomp t i u Hs) as (pre & post & E & <- & R).
    rewrite R, E. apply concat_occ. exact (sub_at_wf t Hwf _ u Hs).
  Qed.

  (* concat(i, subtree(i)) is the identity — for ANY node list on which subtree(i) is defined *)
  Theorem concat_subtree_id : forall (p : list sym) i q,
    subtree arity p i = Some q -> concat arity p i q = Some p.
  Proof.
    intros p i q. unfold subtree, concat.
    destruct (find_end (nargs p) i) eqn:E; simpl; intro H; inversion H; subst.
    apply find_end_bounds in E. rewrite splice_slice_id by lia. reflexivity.
  Qed.

  (* the pair representation (node list, arity array) stays consistent *)
  Lemma nargs_slice p i e : nargs (slice p i e) = slice (nargs p) i e.
  Proof. unfold slice, nargs. rewrite skipn_map, firstn_map. reflexivity. Qed.
  Lemma nargs_splice p i e q : nargs (splice p i e q) = splice (nargs p) i e (nargs q).
  Proof. unfold splice, nargs. rewrite !map_app, firstn_map, skipn_map. reflexivity. Qed.
  Theorem subtree_p_mk p i : subtree_p (mk arity p) i = option_map (mk arity) (subtree arity p i).
  Proof.
    unfold subtree_p, subtree, mk. simpl. destruct (find_end (nargs p) i); simpl; auto.
    rewrite nargs_slice. reflexivity.
  Qed.
  Theorem concat_p_mk p i q :
    concat_p (mk arity p) i (mk arity q) = option_map (mk arity) (concat arity p i q).
  Proof.
    unfold concat_p, concat, mk. simpl. destruct (find_end (nargs p) i); simpl; auto.
    rewrite nargs_splice. reflexivity.
  Qed.

  Lemma nth_error_nargs_occ pre s rest : nth_error (nargs (pre ++ s :: rest)) (length pre) = Some (arity s).
  Proof. rewrite nargs_app, <- (nargs_length pre). apply nth_error_occ. Qed.

  Lemma find_args_loop_flat : forall (r : list tree) (k : tree) pre rest,
    wft k = true -> wff r = true ->
    find_args_loop (nargs (pre ++ flats (k :: r) ++ rest)) (length r) (length pre)
    = Some (child_starts (length pre + size k) r).
  Proof.
    induction r as [|k2 r IH]; intros k pre rest Hk Hr; simpl find_args_loop; auto.
    apply wff_cons in Hr. destruct Hr as [Hk2 Hr].
    rewrite <- app_assoc. rewrite (find_end_flat k pre _ Hk).
    specialize (IH k2 (pre ++ flatten k) rest Hk2 Hr).
    rewrite flats_cons, app_length, flatten_length, <- app_assoc in IH. rewrite IH. reflexivity.
  Qed.

  Theorem find_args_flat : forall s (kids : list tree) pre rest, wft (Node s kids) = true ->
    find_args (nargs (pre ++ flatten (Node s kids) ++ rest)) (length pre)
    = Some (child_starts (S (length pre)) kids).
  Proof.
    intros s kids pre rest Hwf. apply wft_Node in Hwf. destruct Hwf as [L W].
    rewrite flatten_Node. simpl app. unfold find_args. rewrite nth_error_nargs_occ, <- L.
    destruct kids as [|k r]; [reflexivity|]. simpl length.
    apply wff_cons in W. destruct W as [Wk Wr].
    pose proof (find_args_loop_flat r k (pre ++ [s]) rest Wk Wr) as H.
    rewrite <- app_assoc, app_length, Nat.add_1_r in H. cbn [app] in H.
    rewrite H. reflexivity.
  Qed.
End Proofs.
