(* GPOpsProofs.v — C08, part 1: splice closure (concat), standard and one-point crossover, point and
   shrink mutation.  All statements are for ALL well-formed trees, all positions, all draws. *)
From TF Require Import TreeProofs TreeProofs2 TreeCR GPOps.
Open Scope nat_scope.

Lemma ret_inv {A} (a : A) ds r : ret a ds = Some r -> r = (a, ds).
Proof. unfold ret. congruence. Qed.
Lemma lift_inv {A} (o : option A) ds r : lift o ds = Some r -> exists a, o = Some a /\ r = (a, ds).
Proof. unfold lift. destruct o; [intros H; inversion H; eauto|discriminate]. Qed.
Lemma fail_inv {A} ds (r : A * list draw) : fail ds = Some r -> False.
Proof. discriminate. Qed.

(* one step of a chain of binds (Base.minv inverts a whole chain at once, with names of its own choosing) *)
Ltac mstep H :=
  match type of H with
  | bind _ _ _ = Some _ =>
    let a := fresh "a" in let ds := fresh "ds" in let H1 := fresh "Hm" in
    apply bind_inv in H; destruct H as (a & ds & H1 & H)
  | ret _ _ = Some _ => apply ret_inv in H
  | lift _ _ = Some _ =>
    let a := fresh "a" in let H1 := fresh "Hl" in
    apply lift_inv in H; destruct H as (a & H1 & H)
  | fail _ = Some _ => exfalso; apply fail_inv in H; assumption
  end.

Lemma upd_app_len {A} (pre : list A) x rest y : upd (pre ++ x :: rest) (length pre) y = pre ++ y :: rest.
Proof. induction pre; simpl; auto. f_equal; auto. Qed.

Section D.
  Context {sym : Type}.
  Variable arity : sym -> nat.
  Notation tree := (tree sym).
  Notation nargs := (nargs arity).
  Notation wft := (wft arity).
  Notation wff := (wff arity).
  Notation wf := (wf arity).
  Notation mk := (mk arity).

  Lemma level_depth_le : forall (T : tree) i u, sub_at T i = Some u -> level_at T i + depth u <= depth T.
  Proof.
    induction T as [s kids IH] using tree_ind_Forall. intros [|j] u H.
    - inversion H; subst. simpl. lia.
    - destruct (sub_at_f_inv kids j u H) as (m & k & j' & Hn & _ & _ & Hs & Lv & _).
      rewrite level_at_Node, Lv. pose proof (Forall_nth_error _ _ _ _ IH Hn j' u Hs).
      pose proof (child_depth_lt (Node s kids) k (nth_error_In _ _ Hn)). lia.
  Qed.

  Lemma replace_depth : forall (T : tree) i u v, sub_at T i = Some u ->
    depth (replace_at T i v) <= Nat.max (depth T) (level_at T i + depth v).
  Proof.
    induction T as [s kids IH] using tree_ind_Forall. intros [|j] u v H.
    - simpl. lia.
    - destruct (sub_at_f_inv kids j u H) as (m & k & j' & Hn & _ & _ & Hs & Lv & R).
      assert (D : depth (Node s kids) = Nat.max (depth (Node s (firstn m kids)))
                    (Nat.max (S (depth k)) (depth (Node s (skipn (S m) kids))))).
      { rewrite (nth_error_split_at kids m k Hn) at 1. rewrite depth_Node_app, depth_Node_cons. reflexivity. }
      rewrite replace_at_Node, R, depth_Node_app, depth_Node_cons, level_at_Node, Lv, D.
      pose proof (Forall_nth_error _ _ _ _ IH Hn j' u v Hs). lia.
  Qed.

  Lemma replace_syms (T : tree) i u v x : sub_at T i = Some u ->
    In x (flatten (replace_at T i v)) -> In x (flatten T) \/ In x (flatten v).
  Proof.
    intros H Hin. destruct (sub_at_decomp T i u H) as (pre & post & E & _ & R).
    rewrite R in Hin. rewrite E. rewrite !in_app_iff in *. tauto.
  Qed.
  Lemma sub_syms (T : tree) i u x : sub_at T i = Some u -> In x (flatten u) -> In x (flatten T).
  Proof.
    intros H Hin. destruct (sub_at_decomp T i u H) as (pre & post & E & _ & _).
    rewrite E, !in_app_iff. tauto.
  Qed.

  Definition good (t : ptree sym) (T : tree) : Prop := wft T = true /\ t = mk (flatten T).
  (* well-formed prefix tree as the implementation holds it: the recorded arity of every node is
     the arity of its symbol, and the node list is the encoding of one complete tree *)
  Definition wfp (t : ptree sym) : Prop := snd t = nargs (fst t) /\ wf (fst t).
  Definition depthp (t : ptree sym) : nat := max_level (snd t).

  Lemma wfp_good t : wfp t <-> exists T, good t T.
  Proof.
    split.
    - intros (Hn & T & W & E). exists T. split; auto. destruct t as [p a]; simpl in *. subst. reflexivity.
    - intros (T & W & ->). split; [reflexivity|]. exists T. auto.
  Qed.
  Lemma good_depth t T : good t T -> depthp t = depth T.
  Proof. intros (W & ->). unfold depthp. simpl. apply max_level_flat; auto. Qed.
  Lemma good_wfp t T : good t T -> wfp t.
  Proof. intros H. apply wfp_good. eauto. Qed.
  Lemma good_mk T : wft T = true -> good (mk (flatten T)) T.
  Proof. intros W. split; [exact W|reflexivity]. Qed.
  Lemma good_fst t T : good t T -> fst t = flatten T.
  Proof. intros (_ & ->). reflexivity. Qed.
  (* what remains to be shown about a child once its tree is known *)
  Lemma closed_of_good c C (P : sym -> Prop) d : good c C ->
    (forall x, In x (flatten C) -> P x) -> depth C <= d ->
    wfp c /\ (forall x, In x (fst c) -> P x) /\ depthp c <= d.
  Proof.
    intros G HP HD. rewrite (good_depth _ _ G), (good_fst _ _ G). split; [exact (good_wfp _ _ G)|auto].
  Qed.

  Lemma subtree_p_good t T i s : good t T -> subtree_p t i = Some s ->
    exists u, sub_at T i = Some u /\ good s u.
  Proof.
    intros (W & ->) H. rewrite subtree_p_mk in H.
    destruct (Nat.lt_ge_cases i (size T)) as [Hi|Hi].
    - destruct (sub_at_some T i Hi) as (u & Hu). exists u. split; auto.
      rewrite (subtree_flatten arity T i u W Hu) in H. simpl in H. inversion H; subst.
      split; auto. eapply sub_at_wf; eauto.
    - unfold subtree in H. rewrite find_end_none_out in H; [discriminate|].
      rewrite nargs_length, flatten_length. auto.
  Qed.

  Lemma concat_p_good t T i q V o : good t T -> good q V -> concat_p t i q = Some o ->
    exists u, sub_at T i = Some u /\ good o (replace_at T i V).
  Proof.
    intros (W & ->) (WV & ->) H. rewrite concat_p_mk in H.
    destruct (Nat.lt_ge_cases i (size T)) as [Hi|Hi].
    - destruct (sub_at_some T i Hi) as (u & Hu). exists u. split; auto.
      rewrite (concat_flatten arity T i u V W Hu) in H. simpl in H. inversion H; subst.
      split; auto. apply replace_at_wf; auto.
    - unfold concat in H. rewrite find_end_none_out in H; [discriminate|].
      rewrite nargs_length, flatten_length. auto.
  Qed.

  Theorem concat_wf_depth (p q : list sym) i : wf p -> wf q -> i < length p ->
    exists r, concat arity p i q = Some r /\ wf r /\
      max_level (nargs r) <= Nat.max (max_level (nargs p)) (nth i (levels (nargs p) 0) 0 + max_level (nargs q)).
  Proof.
    intros (T & W & <-) (V & WV & <-) Hi. rewrite flatten_length in Hi.
    destruct (sub_at_some T i Hi) as (u & Hu).
    exists (flatten (replace_at T i V)). split; [apply (concat_flatten arity T i u V W Hu)|].
    assert (WR : wft (replace_at T i V) = true) by (apply replace_at_wf; auto).
    split; [exists (replace_at T i V); auto|].
    rewrite !max_level_flat by auto.
    pose proof (levels_flat arity T [] [] W) as HL. simpl in HL. rewrite app_nil_r in HL. rewrite HL.
    rewrite levels_rec_nth by auto. exact (replace_depth T i u V Hu).
  Qed.

  (* transplant = sub-term of the donor at a replaces the sub-term of the host at b *)
  Lemma transplant_good donor D a host H b o : good donor D -> good host H ->
    transplant donor a host b = Some o ->
    exists u w, sub_at D a = Some u /\ sub_at H b = Some w /\ good o (replace_at H b u).
  Proof.
    intros GD GH E. unfold transplant in E. destruct (subtree_p donor a) as [s|] eqn:Es; [|discriminate].
    destruct (subtree_p_good _ _ _ _ GD Es) as (u & Hu & Gs).
    destruct (concat_p_good _ _ _ _ _ _ GH Gs E) as (w & Hw & Go).
    exists u, w. auto.
  Qed.

  Definition syms_from (ps : list (ptree sym)) (c : ptree sym) : Prop :=
    forall x, In x (fst c) -> exists p, In p ps /\ In x (fst p).

  (* named behaviour: one sub-term of one parent replaces one sub-term of the other — or the child
     is that other parent itself when the result would be deeper than max_level *)
  Definition is_transplant (D H C : tree) : Prop :=
    exists a b u w, sub_at D a = Some u /\ sub_at H b = Some w /\ C = replace_at H b u.

  Lemma guarded_transplant donor D a host H b ml ds c ds' : good donor D -> good host H ->
    lift (option_map (guard_depth ml host) (transplant donor a host b)) ds = Some (c, ds') ->
    exists C, good c C /\ ((is_transplant D H C /\ depth C <= ml) \/ C = H).
  Proof.
    intros GD GH E. mstep E. destruct (transplant donor a host b) as [o|] eqn:Et; [|discriminate].
    injection Hl as <-. injection E as -> _.
    destruct (transplant_good _ _ _ _ _ _ _ GD GH Et) as (u & w & Hu & Hw & Go).
    unfold guard_depth. destruct (ml <? max_level (snd o)) eqn:Cm.
    - exists H. auto.
    - exists (replace_at H b u). split; [exact Go|]. left. split; [exists a, b, u, w; auto|].
      apply Nat.ltb_ge in Cm. rewrite <- (good_depth _ _ Go). exact Cm.
  Qed.

  Theorem standard_crossover_spec p1 T1 p2 T2 rest ml ds c ds' :
    good p1 T1 -> good p2 T2 ->
    standard_crossover (p1 :: p2 :: rest) ml ds = Some (c, ds') ->
    exists C, good c C /\
      ((is_transplant T1 T2 C /\ depth C <= ml) \/ (is_transplant T2 T1 C /\ depth C <= ml) \/ C = T1 \/ C = T2).
  Proof.
    intros G1 G2 H. unfold standard_crossover in H. mstep H. mstep H. mstep H. destruct a1.
    - destruct (guarded_transplant _ _ _ _ _ _ _ _ _ _ G1 G2 H) as (C & GC & HC). exists C. split; [exact GC|].
      destruct HC as [HC| ->]; auto.
    - destruct (guarded_transplant _ _ _ _ _ _ _ _ _ _ G2 G1 H) as (C & GC & HC). exists C. split; [exact GC|].
      destruct HC as [HC| ->]; auto.
  Qed.

  Lemma transplant_syms D H C x : is_transplant D H C -> In x (flatten C) -> In x (flatten D) \/ In x (flatten H).
  Proof.
    intros (a & b & u & w & Hu & Hw & ->) Hin.
    destruct (replace_syms _ _ _ _ _ Hw Hin) as [|Hx]; auto. left. exact (sub_syms _ _ _ _ Hu Hx).
  Qed.

  Lemma syms_from_two p1 T1 p2 T2 x : good p1 T1 -> good p2 T2 ->
    In x (flatten T1) \/ In x (flatten T2) -> exists p, In p [p1; p2] /\ In x (fst p).
  Proof.
    intros G1 G2 [H|H]; [exists p1; rewrite (good_fst _ _ G1)|exists p2; rewrite (good_fst _ _ G2)]; simpl; auto.
  Qed.

  (* the child is no deeper than max_level, or it is a copy of a parent *)
  Theorem standard_crossover_closed p1 p2 rest ml ds c ds' :
    wfp p1 -> wfp p2 ->
    standard_crossover (p1 :: p2 :: rest) ml ds = Some (c, ds') ->
    wfp c /\ syms_from [p1; p2] c /\ depthp c <= Nat.max ml (Nat.max (depthp p1) (depthp p2)).
  Proof.
    intros W1 W2 H. apply wfp_good in W1, W2. destruct W1 as (T1 & G1). destruct W2 as (T2 & G2).
    destruct (standard_crossover_spec _ _ _ _ _ _ _ _ _ G1 G2 H) as (C & GC & HC).
    rewrite (good_depth _ _ G1), (good_depth _ _ G2). apply (closed_of_good _ C); auto.
    - intros x Hx. apply (syms_from_two _ T1 _ T2); auto.
      destruct HC as [(Ht & _)|[(Ht & _)|[->| ->]]]; auto.
      + exact (transplant_syms _ _ _ _ Ht Hx).
      + destruct (transplant_syms _ _ _ _ Ht Hx); auto.
    - destruct HC as [(_ & Hd)|[(_ & Hd)|[->| ->]]]; lia.
  Qed.

  Notation cr_rec := (cr_rec arity).
  Notation cr_rec_f := (cr_rec_f arity).

  Lemma cr_rec_pos : forall (t1 t2 : tree) o1 o2 a b, In (a, b) (fst (cr_rec t1 t2 o1 o2)) ->
    exists a' b', a = o1 + a' /\ b = o2 + b' /\ a' < size t1 /\ b' < size t2 /\
                  level_at t1 a' = level_at t2 b'.
  Proof.
    induction t1 as [s1 k1 IH] using tree_ind_Forall. intros [s2 k2] o1 o2 a b H. rewrite cr_rec_Node in H.
    assert (R : In (a, b) [(o1, o2)] \/ In (a, b) (fst (cr_rec_f k1 k2 (S o1) (S o2))))
      by (destruct (arity s1 =? arity s2); [destruct H as [H|H]; [left; left; exact H|right; exact H]|left; exact H]).
    clear H. rewrite !size_Node. destruct R as [[H|[]]|H].
    - inversion H; subst. exists 0, 0. repeat split; lia.
    - assert (F : exists a' b', a = S o1 + a' /\ b = S o2 + b' /\ a' < sizes k1 /\ b' < sizes k2 /\
                                level_at_f k1 a' = level_at_f k2 b').
      { revert k2 H. generalize (S o1), (S o2).
        induction IH as [|u1 r1 Hu _ IHr]; intros p1 p2 [|u2 r2] H; try contradiction H.
        rewrite cr_rec_f_cons in H. apply in_app_or in H. destruct H as [H|H].
        - apply Hu in H. destruct H as (a' & b' & -> & -> & L1 & L2 & LV).
          exists a', b'. rewrite !sizes_cons, !level_at_f_cons, !ltb_true by assumption.
          repeat split; auto; lia.
        - apply IHr in H. destruct H as (a' & b' & -> & -> & L1 & L2 & LV).
          exists (size u1 + a'), (size u2 + b'). rewrite !sizes_cons, !level_at_f_cons, !ltb_false by lia.
          rewrite !(Nat.add_comm (size _)), !Nat.add_sub. repeat split; auto; lia. }
      destruct F as (a' & b' & -> & -> & L1 & L2 & LV).
      exists (S a'), (S b'). rewrite !level_at_Node. repeat split; auto; lia.
  Qed.

  (* named behaviour: the sub-terms at ONE common position (a, b) — same level in both parents —
     are exchanged: the child is one parent with the other parent's sub-term at that position *)
  Definition is_common_exchange (T1 T2 C : tree) : Prop :=
    exists a b u1 u2, In (a, b) (fst (cr_rec T1 T2 0 0)) /\ sub_at T1 a = Some u1 /\ sub_at T2 b = Some u2 /\
      level_at T1 a = level_at T2 b /\ (C = replace_at T2 b u1 \/ C = replace_at T1 a u2).

  Theorem one_point_spec p1 T1 p2 T2 rest ds c ds' :
    good p1 T1 -> good p2 T2 ->
    one_point_crossoverGP (p1 :: p2 :: rest) ds = Some (c, ds') ->
    exists C, good c C /\ is_common_exchange T1 T2 C.
  Proof.
    intros G1 G2 H. unfold one_point_crossoverGP in H.
    assert (CR : common_region_two (snd p1) (snd p2) = Some (cr_rec T1 T2 0 0)).
    { destruct G1 as (W1 & ->). destruct G2 as (W2 & ->). simpl. apply common_region_two_spec; auto. }
    rewrite CR in H. destruct (cr_rec T1 T2 0 0) as [com bor] eqn:ER.
    mstep H. mstep H. destruct (nth_error com a) as [[x y]|] eqn:En; [|mstep H].
    assert (Hin : In (x, y) (fst (cr_rec T1 T2 0 0))) by (rewrite ER; simpl; eapply nth_error_In; eauto).
    destruct (cr_rec_pos _ _ _ _ _ _ Hin) as (a' & b' & Ea & Eb & L1 & L2 & LV). simpl in Ea, Eb. subst a' b'.
    destruct a0; mstep H.
    - destruct (transplant_good _ _ _ _ _ _ _ G1 G2 Hl) as (u & w & Hu & Hw & Go).
      inversion H; subst. exists (replace_at T2 y u). split; auto.
      exists x, y, u, w. repeat split; auto.
    - destruct (transplant_good _ _ _ _ _ _ _ G2 G1 Hl) as (u & w & Hu & Hw & Go).
      inversion H; subst. exists (replace_at T1 x u). split; auto.
      exists x, y, w, u. repeat split; auto.
  Qed.

  (* no depth guard is needed: common positions sit at the same level in both parents *)
  Lemma common_exchange_closed T1 T2 C : is_common_exchange T1 T2 C ->
    (is_transplant T1 T2 C \/ is_transplant T2 T1 C) /\ depth C <= Nat.max (depth T1) (depth T2).
  Proof.
    intros (a & b & u1 & u2 & _ & H1 & H2 & LV & [-> | ->]).
    - split; [left; exists a, b, u1, u2; auto|].
      pose proof (replace_depth T2 b u2 u1 H2). pose proof (level_depth_le T1 a u1 H1). lia.
    - split; [right; exists b, a, u2, u1; auto|].
      pose proof (replace_depth T1 a u1 u2 H1). pose proof (level_depth_le T2 b u2 H2). lia.
  Qed.

  Theorem one_point_closed p1 p2 rest ds c ds' :
    wfp p1 -> wfp p2 ->
    one_point_crossoverGP (p1 :: p2 :: rest) ds = Some (c, ds') ->
    wfp c /\ syms_from [p1; p2] c /\ depthp c <= Nat.max (depthp p1) (depthp p2).
  Proof.
    intros W1 W2 H. apply wfp_good in W1, W2. destruct W1 as (T1 & G1). destruct W2 as (T2 & G2).
    destruct (one_point_spec _ _ _ _ _ _ _ _ G1 G2 H) as (C & GC & HC).
    destruct (common_exchange_closed _ _ _ HC) as (Ht & Hd).
    rewrite (good_depth _ _ G1), (good_depth _ _ G2). apply (closed_of_good _ C); auto.
    intros x Hx. apply (syms_from_two _ T1 _ T2); auto.
    destruct Ht as [Ht|Ht]; destruct (transplant_syms _ _ _ _ Ht Hx); auto.
  Qed.

  Lemma child_starts_length : forall (kids : list tree) o, length (child_starts o kids) = length kids.
  Proof. induction kids; intros; simpl; auto. Qed.

  Lemma combine_seq_In {A} : forall (a : list A) o i n, In (i, n) (combine (seq o (length a)) a) ->
    o <= i /\ nth_error a (i - o) = Some n.
  Proof.
    induction a as [|x a IH]; intros o i n H; simpl in H; [contradiction|].
    destruct H as [H|H].
    - inversion H; subst. rewrite Nat.sub_diag. auto.
    - apply IH in H. destruct H as (Hle & Hn). split; [lia|].
      replace (i - o) with (S (i - S o)) by lia. exact Hn.
  Qed.
  Lemma positions_where_In f (a : list nat) i : In i (positions_where f a) ->
    exists n, nth_error a i = Some n /\ f n = true.
  Proof.
    unfold positions_where. rewrite in_map_iff. intros ([j n] & E & H). simpl in E. subst j.
    apply filter_In in H. destruct H as (H & Hf). simpl in Hf.
    apply combine_seq_In in H. rewrite Nat.sub_0_r in H. exists n. tauto.
  Qed.

  Lemma node_at (T : tree) i : i < size T ->
    exists s kids pre post, sub_at T i = Some (Node s kids) /\ flatten T = pre ++ flatten (Node s kids) ++ post /\
      length pre = i /\ forall v, flatten (replace_at T i v) = pre ++ flatten v ++ post.
  Proof.
    intros Hi. destruct (sub_at_some T i Hi) as ([s kids] & Hu).
    destruct (sub_at_decomp T i _ Hu) as (pre & post & E & L & R). exists s, kids, pre, post. auto.
  Qed.

  (* the node whose arguments find_args lists, with the context around it *)
  Lemma find_args_good t T i args : good t T -> find_args (snd t) i = Some args ->
    exists s kids pre post, sub_at T i = Some (Node s kids) /\ wft (Node s kids) = true /\
      flatten T = pre ++ flatten (Node s kids) ++ post /\ length pre = i /\
      (forall v, flatten (replace_at T i v) = pre ++ flatten v ++ post) /\ args = child_starts (S i) kids /\
      nth_error (snd t) i = Some (arity s).
  Proof.
    intros (W & ->) Ea. simpl in *.
    assert (Hi : i < size T).
    { apply find_args_bound in Ea. rewrite nargs_length, flatten_length in Ea. exact Ea. }
    destruct (node_at T i Hi) as (s & kids & pre & post & Hu & E & L & R).
    pose proof (sub_at_wf arity T W _ _ Hu) as Wu. exists s, kids, pre, post. rewrite E, <- L in *.
    rewrite (find_args_flat arity s kids pre post Wu) in Ea. repeat split; auto; [congruence|].
    apply nth_error_nargs_occ.
  Qed.

  Definition term_of (U : uniset) (s : sym) : Prop :=
    In (inl s) (u_terms U) \/ exists g ds ds', In (inr g) (u_terms U) /\ g ds = Some (s, ds').
  Definition in_uniset (U : uniset) (s : sym) : Prop := In s (u_funcs U) \/ term_of U s.
  (* function symbols take arguments, terminals (and whatever an ephemeral generator returns) do not *)
  Definition uniset_ok (U : uniset) : Prop :=
    (forall s, In s (u_funcs U) -> 1 <= arity s) /\ (forall s, term_of U s -> arity s = 0).

  Lemma random_terminal_spec U ds s ds' : random_terminal U ds = Some (s, ds') -> term_of U s.
  Proof.
    unfold random_terminal. intros H. mstep H.
    destruct (nth_error (u_terms U) a) as [[x|g]|] eqn:E; [| |mstep H].
    - mstep H. inversion H; subst. left. eapply nth_error_In; eauto.
    - right. exists g, ds0, ds'. split; auto. eapply nth_error_In; eauto.
  Qed.
  Lemma random_functional_spec U k ds s ds' : random_functional arity U k ds = Some (s, ds') ->
    In s (u_funcs U) /\ forall n, k = Some n -> arity s = n.
  Proof.
    unfold random_functional. intros H. mstep H. mstep H. inversion H; subst.
    apply nth_error_In in Hl. destruct k as [n|]; simpl in Hl.
    - apply filter_In in Hl. destruct Hl as (Hin & Ha). apply Nat.eqb_eq in Ha.
      split; auto. intros m Hmm. inversion Hmm; subst; auto.
    - split; auto. discriminate.
  Qed.

  (* named behaviour: ONE symbol is replaced by a symbol of the same arity from the universal set
     (a terminal by a terminal, a function by a function of the same arity); nothing else changes *)
  Definition is_relabel (U : uniset) (T C : tree) : Prop :=
    exists i s kids s', sub_at T i = Some (Node s kids) /\ arity s' = arity s /\ in_uniset U s' /\
      C = replace_at T i (Node s' kids).

  Theorem point_mutation_spec t T U proba ds c ds' :
    good t T -> uniset_ok U ->
    point_mutation arity t U proba ds = Some (c, ds') ->
    exists C, good c C /\ (C = T \/ is_relabel U T C).
  Proof.
    intros G (UF & UT) H. unfold point_mutation in H. mstep H. destruct a.
    2:{ mstep H. inversion H; subst. exists T. auto. }
    mstep H. destruct (nth_error (fst t) a) as [s|] eqn:En; [|mstep H].
    mstep H. mstep H. inversion H; subst; clear H.
    destruct G as (W & ->). simpl in *.
    assert (Hi : a < size T). { rewrite <- flatten_length. apply nth_error_Some. congruence. }
    destruct (node_at T a Hi) as (s0 & kids & pre & post & Hu & E & L & R).
    assert (s0 = s). { rewrite E, <- L in En. simpl in En. rewrite nth_error_occ in En. congruence. }
    subst s0.
    assert (Hnew : arity a0 = arity s /\ in_uniset U a0).
    { unfold is_fun in Hm1. destruct (0 <? arity s) eqn:Ef.
      - apply random_functional_spec in Hm1. destruct Hm1 as (Hin & Ha). split; [apply Ha; auto|left; auto].
      - apply random_terminal_spec in Hm1. apply Nat.ltb_ge in Ef. split; [rewrite (UT _ Hm1); lia|right; auto]. }
    destruct Hnew as (Ha & Hu').
    pose proof (sub_at_wf arity T W _ _ Hu) as Wu. apply wft_Node in Wu. destruct Wu as (Lk & Wk).
    exists (replace_at T a (Node a0 kids)). split.
    - split.
      + apply replace_at_wf; auto. apply wft_Node. split; auto. congruence.
      + unfold mk. rewrite R, E, <- L. simpl. rewrite upd_app_len. f_equal.
        rewrite !nargs_app. simpl. rewrite Ha. reflexivity.
    - right. exists a, s, kids, a0. auto.
  Qed.

  (* mutations are grafts: every mutation replaces the sub-term at ONE position by a tree that is no deeper and whose
     symbols come from the tree itself or satisfy P; closure is proved once for that shape *)
  Definition is_graft (P : sym -> Prop) (T C : tree) : Prop :=
    exists i u v, sub_at T i = Some u /\ depth v <= depth u /\
      (forall x, In x (flatten v) -> In x (flatten u) \/ P x) /\ C = replace_at T i v.

  Lemma graft_closed P T C : C = T \/ is_graft P T C ->
    depth C <= depth T /\ forall x, In x (flatten C) -> In x (flatten T) \/ P x.
  Proof.
    intros [->|(i & u & v & Hu & Hd & Hs & ->)]; [auto|].
    split; [pose proof (replace_depth T i u v Hu); pose proof (level_depth_le T i u Hu); lia|].
    intros x Hx. destruct (replace_syms _ _ _ _ _ Hu Hx) as [|Hv]; [auto|].
    destruct (Hs x Hv) as [Hxu|]; [left; exact (sub_syms _ _ _ _ Hu Hxu)|auto].
  Qed.

  Theorem mutation_closed P (Q : tree -> tree -> Prop) t c : (forall T C, Q T C -> is_graft P T C) -> wfp t ->
    (forall T, good t T -> exists C, good c C /\ (C = T \/ Q T C)) ->
    wfp c /\ (forall x, In x (fst c) -> In x (fst t) \/ P x) /\ depthp c <= depthp t.
  Proof.
    intros HQ W H. apply wfp_good in W. destruct W as (T & G). destruct (H T G) as (C & GC & HC).
    destruct (graft_closed P T C) as (Hd & Hs); [destruct HC as [HC|HC]; [left; exact HC|right; exact (HQ _ _ HC)]|].
    rewrite (good_depth _ _ G), (good_fst _ _ G). exact (closed_of_good c C _ _ GC Hs Hd).
  Qed.
  (* ... with symbols of the tree only *)
  Corollary mutation_closed_in (Q : tree -> tree -> Prop) t c : (forall T C, Q T C -> is_graft (fun _ => False) T C) ->
    wfp t -> (forall T, good t T -> exists C, good c C /\ (C = T \/ Q T C)) ->
    wfp c /\ (forall x, In x (fst c) -> In x (fst t)) /\ depthp c <= depthp t.
  Proof.
    intros HQ W H. destruct (mutation_closed _ Q t c HQ W H) as (A & B & D).
    split; [exact A|]. split; [|exact D]. intros x Hx. destruct (B x Hx) as [|[]]. assumption.
  Qed.

  Lemma relabel_graft U T C : is_relabel U T C -> is_graft (in_uniset U) T C.
  Proof.
    intros (i & s & kids & s' & Hu & _ & Hin & ->). exists i, (Node s kids), (Node s' kids).
    repeat split; auto. intros x [<-|Hx]; [right; exact Hin|left; right; exact Hx].
  Qed.

  Theorem point_mutation_closed t U proba ds c ds' :
    wfp t -> uniset_ok U ->
    point_mutation arity t U proba ds = Some (c, ds') ->
    wfp c /\ (forall x, In x (fst c) -> In x (fst t) \/ in_uniset U x) /\ depthp c <= depthp t.
  Proof.
    intros W UO H. apply (mutation_closed _ _ t c (relabel_graft U) W).
    intros T G. exact (point_mutation_spec _ _ _ _ _ _ _ G UO H).
  Qed.

  (* named behaviour: a function node is replaced by one of its own arguments *)
  Definition is_shrink (T C : tree) : Prop :=
    exists i s kids k, sub_at T i = Some (Node s kids) /\ In k kids /\ C = replace_at T i k.

  Theorem shrink_mutation_spec t T (U : uniset) proba ds c ds' :
    good t T ->
    shrink_mutation t U proba ds = Some (c, ds') ->
    (size T <= 2 -> c = t /\ ds' = ds) /\
    exists C, good c C /\ (C = T \/ is_shrink T C).
  Proof.
    intros G H. unfold shrink_mutation in H. rewrite (good_fst _ _ G), flatten_length in H.
    destruct (2 <? size T) eqn:E2.
    2:{ mstep H. inversion H; subst. split; auto. exists T. auto. }
    apply Nat.ltb_lt in E2. split; [lia|].
    mstep H. destruct a.
    2:{ mstep H. inversion H; subst. exists T. auto. }
    destruct (positions_where (fun n => 0 <? n) (snd t)) as [|i0 idx] eqn:Ei.
    { mstep H. inversion H; subst. exists T. auto. }
    mstep H. destruct (nth_error (i0 :: idx) a) as [i|] eqn:En; [|mstep H].
    destruct (find_args (snd t) i) as [args|] eqn:Ea; [|mstep H].
    mstep H. mstep H. inversion H; subst; clear H.
    destruct (find_args_good _ _ _ _ G Ea) as (s & kids & pre & post & Hu & Wu & E & L & R & Hargs & _).
    assert (Hch : exists m, nth_error args m = Some a0).
    { destruct (1 <? length args); [mstep Hm1; mstep Hm1; inversion Hm1; subst; eauto|].
      mstep Hm1. inversion Hm1; subst. eauto. }
    destruct Hch as (m & Hnm). rewrite Hargs, child_starts_nth in Hnm.
    destruct (nth_error kids m) as [kid|] eqn:Hk; [|discriminate]. injection Hnm as <-.
    pose proof (Forall_nth_error _ _ _ _ (proj2 (wft_children arity _ Wu)) Hk) as Wkid.
    (* the chosen argument as an occurrence in the node list *)
    destruct (kid_occ s kids m kid pre post Hk) as [Eo Lo]. cbn [Nat.add] in Lo.
    assert (Es : subtree_p t (S (i + sizes (firstn m kids))) = Some (mk (flatten kid))).
    { destruct G as (_ & ->). rewrite subtree_p_mk, E, Eo, <- L, <- Lo, subtree_occ by exact Wkid. reflexivity. }
    unfold transplant in Hl. rewrite Es in Hl.
    destruct (concat_p_good _ _ _ _ _ _ G (good_mk kid Wkid) Hl) as (w & Hw & Go).
    exists (replace_at T i kid). split; auto. right. exists i, s, kids, kid. repeat split; auto.
    exact (nth_error_In _ _ Hk).
  Qed.

  Lemma shrink_graft T C : is_shrink T C -> is_graft (fun _ => False) T C.
  Proof.
    intros (i & s & kids & k & Hu & Hin & ->). exists i, (Node s kids), k. repeat split; auto.
    - apply Nat.lt_le_incl. exact (child_depth_lt (Node s kids) k Hin).
    - intros x Hx. left. right. apply in_flats. eauto.
  Qed.

  Theorem shrink_mutation_closed t (U : uniset) proba ds c ds' :
    wfp t ->
    shrink_mutation t U proba ds = Some (c, ds') ->
    wfp c /\ (forall x, In x (fst c) -> In x (fst t)) /\ depthp c <= depthp t.
  Proof.
    intros W H. apply (mutation_closed_in _ t c shrink_graft W).
    intros T G. exact (proj2 (shrink_mutation_spec _ _ _ _ _ _ _ G H)).
  Qed.
End D.
