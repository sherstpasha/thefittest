(* CodeEqLoop.v — the record keeper and the scalar loop logic of base/_ea.py: the definitions of the loop model
   (EALoop.v: update_best, terminate, aim_of) are EQUAL to the definitions that
   harness/translate_loop.py generates from TheFittest / EvolutionaryAlgorithm (coq/gen/GenLoop.v). *)
From TF Require Import Py PyLemmas EALoop.
From TFG Require Import GenLoop.
Open Scope Z_scope.

Section Tie.
Variables G P : Type.
Variables (dG : G) (dP : P).
Let indiv := indiv G P.
Let d0 : indiv := {| ig := dG; iph := dP; ifit := 0%Q |}.

(* what the record keeper's state means in the loop model: nothing recorded while the fitness is -inf *)
Definition abs_best (tf : TheFittest G P) : option indiv :=
  match tf_fitness G P tf with
  | Fin f => Some {| ig := tf_genotype G P tf; iph := tf_phenotype G P tf; ifit := f |}
  | _ => None
  end.

(* np.argmax and the model's first maximum pick the same individual *)
Lemma first_max_argmax (all : list indiv) : forall (t : list indiv) (b : indiv) (bi i : nat),
  nth bi all d0 = b -> skipn i all = t -> (bi < i)%nat ->
  first_max G P b t = nth (argmax_from (ifit b) bi i (map ifit t)) all d0.
Proof.
  induction t as [|x t IH]; intros b bi i Hb Ht Hlt; cbn [first_max map argmax_from]; [now symmetry|].
  assert (Hx : nth i all d0 = x /\ skipn (Datatypes.S i) all = t).
  { clear -Ht. revert i Ht; induction all as [|a all IHa]; intros [|i] Ht; simpl in *; try discriminate.
    - inversion Ht; auto.
    - apply IHa in Ht. exact Ht. }
  destruct Hx as [Hx Hs].
  destruct (Qltb (ifit b) (ifit x)); apply IH; auto.
Qed.

Lemma best_of_argmax (p : list indiv) : p <> [] ->
  best_of G P p = Some (nth (argmax (map ifit p)) p d0).
Proof.
  destruct p as [|x t]; [congruence|]. intros _. cbn [best_of map argmax]. f_equal.
  apply (first_max_argmax (x :: t) t x 0%nat 1%nat); auto.
Qed.

(* the row np.argmax picks, read from each of the three arrays *)
Lemma argmax_row (p : list indiv) :
  let k := argmaxZ (map ifit p) in
  let m := nth (argmax (map ifit p)) p d0 in
  getQ (map ifit p) k = ifit m /\ getA dG (map ig p) k = ig m /\ getA dP (map iph p) k = iph m.
Proof.
  cbv zeta. unfold argmaxZ, getA. rewrite getQ_nat, !pyidx_nat. repeat split.
  - change 0%Q with (ifit d0). apply map_nth.
  - change dG with (ig d0). apply map_nth.
  - change dP with (iph d0). apply map_nth.
Qed.

(* TheFittest._update against update_best, field by field: after a non-empty population something finite is recorded *)
Lemma update_sim (tf : TheFittest G P) (p : list indiv) (c : nat) :
  p <> [] -> tf_fitness G P tf <> PosInf -> tf_no_update_counter G P tf = Z.of_nat c ->
  let tf' := py_TheFittest__update G P dG dP tf (map ig p) (map iph p) (map ifit p) in
  exists m c', update_best G P (abs_best tf) c p = (Some m, c') /\
    tf_genotype G P tf' = ig m /\ tf_phenotype G P tf' = iph m /\ tf_fitness G P tf' = Fin (ifit m) /\
    tf_no_update_counter G P tf' = Z.of_nat c'.
Proof.
  intros Hp Hinf Hc. cbv zeta. unfold py_TheFittest__update, py_TheFittest__replace, update_best,
    set_tf_genotype, set_tf_phenotype, set_tf_fitness, set_tf_no_update_counter, abs_best. cbv zeta.
  rewrite (best_of_argmax p Hp). destruct (argmax_row p) as (-> & -> & ->). set (m := nth _ p d0).
  destruct (tf_fitness G P tf) as [|f|] eqn:Ef; [| |congruence].
  - (* nothing recorded yet *) exists m, 0%nat. repeat split.
  - unfold Qinf_ltb, Qinf_leb, Qltb. cbn [EALoop.ifit].
    destruct (Qle_bool (ifit m) f); cbn [negb tf_fitness tf_genotype tf_phenotype tf_no_update_counter].
    + exists {| ig := tf_genotype G P tf; iph := tf_phenotype G P tf; ifit := f |}, (S c). repeat split. lia.
    + exists m, 0%nat. repeat split.
Qed.

Lemma abs_best_fin (tf : TheFittest G P) (m : indiv) :
  tf_genotype G P tf = ig m -> tf_phenotype G P tf = iph m -> tf_fitness G P tf = Fin (ifit m) -> abs_best tf = Some m.
Proof. intros Hg Hph Hf. unfold abs_best. rewrite Hf, Hg, Hph. destruct m; reflexivity. Qed.

(* TheFittest._update  =  update_best *)
Theorem code_update_best (tf : TheFittest G P) (p : list indiv) :
  p <> [] -> tf_fitness G P tf <> PosInf -> 0 <= tf_no_update_counter G P tf ->
  let tf' := py_TheFittest__update G P dG dP tf (map ig p) (map iph p) (map ifit p) in
  update_best G P (abs_best tf) (Z.to_nat (tf_no_update_counter G P tf)) p
  = (abs_best tf', Z.to_nat (tf_no_update_counter G P tf')).
Proof.
  intros Hp Hinf Hc. cbv zeta.
  destruct (update_sim tf p (Z.to_nat (tf_no_update_counter G P tf)) Hp Hinf ltac:(lia)) as (m & c' & -> & Hg & Hph & Hf & ->).
  now rewrite (abs_best_fin _ m Hg Hph Hf), Nat2Z.id.
Qed.

(* _get_aim = aim_of, for the sign the constructor stores *)
Definition abs_aim (a : Qinf) : option Q := match a with Fin q => Some q | _ => None end.

Theorem code_get_aim (self : EvolutionaryAlgorithm G P) (minimization : bool) optimal err :
  ea_sign G P self = (if minimization then -1 else 1) ->
  abs_aim (py_EvolutionaryAlgorithm__get_aim G P self optimal err) = aim_of minimization optimal err.
Proof.
  intro Hs. unfold py_EvolutionaryAlgorithm__get_aim, aim_of. destruct optimal as [v|]; [|reflexivity].
  rewrite Hs. destruct minimization; reflexivity.
Qed.

(* _termitation_check = terminate *)
Definition abs_nin (n : option Z) : option nat := option_map Z.to_nat n.

Theorem code_terminate (self : EvolutionaryAlgorithm G P) (st : state G P) :
  ea_aim G P self <> NegInf -> tf_fitness G P (ea_thefittest G P self) <> PosInf ->
  best st = abs_best (ea_thefittest G P self) ->
  Z.of_nat (counter st) = tf_no_update_counter G P (ea_thefittest G P self) ->
  (forall n, ea_no_increase_num G P self = Some n -> 0 <= n) ->
  py_EvolutionaryAlgorithm__termitation_check G P self
  = terminate G P (abs_aim (ea_aim G P self)) (abs_nin (ea_no_increase_num G P self)) st.
Proof.
  intros Ha Hf Hb Hc Hn. unfold py_EvolutionaryAlgorithm__termitation_check, terminate. cbv zeta.
  rewrite Hb. unfold abs_best, abs_aim, abs_nin.
  f_equal.
  - destruct (ea_aim G P self) as [|a|]; [congruence| |];
      destruct (tf_fitness G P (ea_thefittest G P self)) as [|f|]; try congruence; reflexivity.
  - destruct (ea_no_increase_num G P self) as [n|] eqn:En; [|reflexivity]. cbn [option_map].
    rewrite <- Hc. specialize (Hn n eq_refl).
    destruct (Nat.eqb_spec (counter st) (Z.to_nat n)) as [He|Hne].
    + apply Z.eqb_eq. lia.
    + apply Z.eqb_neq. lia.
Qed.

(* the constructor's state: nothing recorded, counter 0, calls 0, aim = aim_of *)
Theorem code_init iters pop_size minimization optimal err nin elitism keep_history n_jobs has_cb :
  let self := py_EvolutionaryAlgorithm_init G P dG dP iters pop_size minimization optimal err nin elitism keep_history n_jobs has_cb in
  abs_best (ea_thefittest G P self) = None /\ tf_no_update_counter G P (ea_thefittest G P self) = 0 /\
  ea_calls G P self = 0 /\ abs_aim (ea_aim G P self) = aim_of minimization optimal err /\ ea_aim G P self <> NegInf /\
  ea_stats G P self = [] /\ snd (ea_on_generation G P self) = 0.
Proof.
  cbv zeta. unfold py_EvolutionaryAlgorithm_init. cbv zeta. cbn [ea_thefittest ea_calls ea_aim ea_stats ea_on_generation snd].
  repeat split.
  - apply code_get_aim. reflexivity.
  - unfold py_EvolutionaryAlgorithm__get_aim. destruct optimal; discriminate.
Qed.

End Tie.
