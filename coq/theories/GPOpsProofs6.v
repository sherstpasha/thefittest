(* GPOpsProofs6.v — C08: the hypothesis
       region arity (parents_of Ts) = Some (region_rec Ts fuel)
   of GPOpsProofs4.uniform_with_spec / uniform_with_closed holds for every number of parents:
   for two by region_two, otherwise by TreeCRk.common_region_k_spec, whose recursive region
   crk_rec is GPOps.crk_tag. *)
From TF Require Import TreeCRk GPOps GPOpsProofs4.
Open Scope nat_scope.

Section K.
  Context {sym : Type}.
  Variable arity : sym -> nat.
  Notation tree := (tree sym).
  Notation wft := (wft arity).

  (* get_common_region returns the recursive region, whatever the number of parents *)
  Theorem region_is_rec (T0 : tree) Ts' : Forall (fun t => wft t = true) (T0 :: Ts') ->
    region arity (parents_of arity (T0 :: Ts')) = Some (region_rec arity (T0 :: Ts') (S (depth T0))).
  Proof.
    intros W. destruct (Nat.eq_dec (length Ts') 1) as [E|NE].
    - destruct Ts' as [|T1 [|? ?]]; try discriminate.
      inversion W as [|? ? W0 W']; subst. inversion W' as [|? ? W1 _]; subst. apply region_two; auto.
    - transitivity (option_map (fun cb : crk_out => (fst cb, map (hd 0) (snd cb)))
                      (common_region_k (map (fun t => nargs arity (flatten t)) (T0 :: Ts')))).
      + unfold region, parents_of. rewrite !map_map.
        destruct Ts' as [|T1 [|T2 Ts'']]; [reflexivity|simpl in NE; congruence|reflexivity].
      + rewrite (common_region_k_spec arity T0 Ts' (S (depth T0)) W (Nat.lt_succ_diag_r _)). reflexivity.
  Qed.
End K.
