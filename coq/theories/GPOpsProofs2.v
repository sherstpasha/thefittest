(* GPOpsProofs2.v — C08, part 2: the initialisers (full / grow / random_tree / half_and_half) produce
   well-formed trees of depth <= max_level (full: every leaf exactly at max_level), for ANY universal
   set whose function symbols take arguments and whose terminals do not; growing mutation. *)
From TF Require Import RandomPrimsProofs2 TreeProofs TreeProofs2 GPOps GPOpsProofs.
Open Scope nat_scope.

Section I.
  Context {sym : Type}.
  Variable arity : sym -> nat.
  Notation tree := (tree sym).
  Notation nargs := (nargs arity).
  Notation wft := (wft arity).
  Notation wff := (wff arity).
  Notation mk := (mk arity).
  Notation good := (good arity).
  Notation in_uniset := (in_uniset (sym := sym)).

  (* every leaf exactly d levels below the root *)
  Fixpoint fullt (d : nat) (t : tree) : bool :=
    match t with
    | Node _ kids =>
      match kids with
      | [] => d =? 0
      | _ => match d with 0 => false | S d' => forallb (fullt d') kids end
      end
    end.

  Definition tagl (p : list sym) : list (sym * nat) := map (fun s => (s, arity s)) p.
  Lemma tagl_app a b : tagl (a ++ b) = tagl a ++ tagl b.
  Proof. apply map_app. Qed.
  Lemma tagl_fst p : map fst (tagl p) = p.
  Proof. unfold tagl. rewrite map_map. simpl. apply map_id. Qed.
  Lemma tagl_snd p : map snd (tagl p) = nargs p.
  Proof. unfold tagl. rewrite map_map. reflexivity. Qed.

  Section Fits.
    Variable U : uniset (sym := sym).
    Hypothesis UO : uniset_ok arity U.
    Variable ml : nat.
    Variable full : bool.

    (* a generated sub-term whose root sits at level lv *)
    Definition okt (lv : nat) (t : tree) : Prop :=
      wft t = true /\ lv + depth t <= ml /\ (full = true -> fullt (ml - lv) t = true) /\
      (forall x, In x (flatten t) -> in_uniset U x).

    (* what the loop still has to produce for a stack of pending argument counts *)
    Inductive fits : list (nat * nat) -> list (sym * nat) -> Prop :=
    | fits_nil : fits [] []
    | fits_cons c lv st F r : length F = c -> Forall (okt lv) F -> fits st r ->
                              fits ((c, lv) :: st) (tagl (flats F) ++ r).

    Lemma fits_push c lv st t r : okt lv t -> fits (norm c lv st) r ->
      fits ((S c, lv) :: st) (tagl (flatten t) ++ r).
    Proof.
      intros Ht H. destruct c as [|c].
      - pose proof (fits_cons 1 lv st [t] r eq_refl (Forall_cons _ Ht (Forall_nil _)) H) as X.
        rewrite flats_singleton in X. exact X.
      - inversion H as [|c' lv' st' F r' HL HF HR]; subst.
        pose proof (fits_cons (S (S c)) lv st (t :: F) r' (f_equal S HL) (Forall_cons _ Ht HF) HR) as X.
        rewrite flats_cons, tagl_app, <- app_assoc in X. exact X.
    Qed.

    (* the arguments of a node that has just been pushed *)
    Lemma fits_pop n lv st r : fits (if 0 <? n then (n, S lv) :: st else st) r ->
      exists K r', r = tagl (flats K) ++ r' /\ length K = n /\ Forall (okt (S lv)) K /\ fits st r'.
    Proof.
      destruct n as [|n]; simpl; intros H.
      - exists [], r. auto.
      - inversion H as [|c' lv' st' K r' HL HK HR]; subst. exists K, r'. auto.
    Qed.

    Lemma okt_mk lv s (K : list tree) : length K = arity s -> in_uniset U s -> Forall (okt (S lv)) K ->
      lv <= ml -> (K = [] -> full = true -> lv = ml) -> (K <> [] -> lv < ml) -> okt lv (Node s K).
    Proof.
      intros HL Hu HK Hle H0 H1. rewrite Forall_forall in HK. repeat split.
      - apply wft_Node. split; [exact HL|]. apply wff_Forall, Forall_forall. intros k Hk. apply (HK k Hk).
      - assert (depth (Node s K) <= ml - lv); [|lia]. apply depth_Node_le, Forall_forall.
        intros k Hk. destruct (HK k Hk) as (_ & Hd & _). lia.
      - intros F. destruct K as [|k0 K'].
        + rewrite (H0 eq_refl F), Nat.sub_diag. reflexivity.
        + replace (ml - lv) with (S (ml - S lv)) by (specialize (H1 ltac:(discriminate)); lia).
          apply forallb_forall. intros k Hk. destruct (HK k Hk) as (_ & _ & Hf & _). auto.
      - intros x [<-|Hx]; [exact Hu|]. apply in_flats in Hx. destruct Hx as (k & Hk & Hx).
        destruct (HK k Hk) as (_ & _ & _ & Hs). auto.
    Qed.

    (* one node drawn for the top frame: its arguments, then the rest of that frame *)
    Lemma grow_step c lv st s r : in_uniset U s -> lv <= ml ->
      (arity s = 0 -> full = true -> lv = ml) -> (0 < arity s -> lv < ml) ->
      fits (if 0 <? arity s then (arity s, S lv) :: norm c lv st else norm c lv st) r ->
      fits ((S c, lv) :: st) ((s, arity s) :: r).
    Proof.
      intros Hu Hle H0 H1 H. destruct (fits_pop _ _ _ _ H) as (K & r' & -> & HL & HK & HR).
      apply (fits_push c lv st (Node s K) r'); [|exact HR]. apply okt_mk; auto.
      - intros ->. apply H0. symmetry. exact HL.
      - intros NE. apply H1. destruct K; [congruence|]. simpl in HL. lia.
    Qed.

    Definition st_ok (st : list (nat * nat)) : Prop := Forall (fun cl => 1 <= fst cl /\ snd cl <= ml) st.
    Lemma norm_ok c lv st : st_ok ((S c, lv) :: st) -> st_ok (norm c lv st).
    Proof.
      intros H. inversion H as [|x l Hx Hl]; subst. destruct c; [exact Hl|].
      constructor; [|exact Hl]. simpl in *. lia.
    Qed.

    Lemma grow_loop_fits : forall fuel st ds r ds', st_ok st ->
      grow_loop arity full U ml fuel st ds = Some (r, ds') -> fits st r.
    Proof.
      destruct UO as (UF & UT).
      induction fuel as [|f IH]; intros st ds r ds' Hst H.
      - destruct st as [|[c lv] st]; simpl in H; [|discriminate]. inversion H; subst. constructor.
      - destruct st as [|[c lv] st]; [simpl in H; inversion H; subst; constructor|].
        pose proof Hst as Hst'. inversion Hst' as [|x l (Hc & Hlv) Hl]; subst. simpl in Hc, Hlv.
        destruct c as [|c]; [lia|]. pose proof (norm_ok _ _ _ Hst) as Hst1.
        cbn [grow_loop] in H. rewrite norm_step in H.
        destruct (lv =? ml) eqn:Elv.
        + (* forced terminal *)
          apply Nat.eqb_eq in Elv. mstep H. mstep H. mstep H. inversion H; subst; clear H.
          apply random_terminal_spec in Hm. pose proof (UT _ Hm) as Ha.
          apply IH in Hm0; [|exact Hst1]. rewrite <- Ha.
          apply grow_step; auto; [right; exact Hm|lia|rewrite Ha; exact Hm0].
        + apply Nat.eqb_neq in Elv. assert (Hlt : lv < ml) by lia.
          destruct (full || (lv =? 0)) eqn:Ef.
          * (* function node *)
            mstep H. mstep H. mstep H. inversion H; subst; clear H.
            apply random_functional_spec in Hm. destruct Hm as (Hin & _). pose proof (UF _ Hin) as Ha.
            apply IH in Hm0; [|constructor; [simpl; lia|exact Hst1]].
            apply grow_step; auto; [left; exact Hin|lia|rewrite ltb_true by lia; exact Hm0].
          * (* grow: coin between a terminal and a function *)
            apply orb_false_iff in Ef. destruct Ef as (Ef & _).
            mstep H. mstep H. mstep H. mstep H. inversion H; subst; clear H.
            assert (Hu : in_uniset U a0).
            { destruct a.
              - apply random_terminal_spec in Hm0. right; auto.
              - apply random_functional_spec in Hm0. left; tauto. }
            apply IH in Hm1.
            -- apply grow_step; auto. congruence.
            -- destruct (0 <? arity a0) eqn:Ea; [|exact Hst1].
               apply Nat.ltb_lt in Ea. constructor; [simpl; lia|exact Hst1].
    Qed.

    Theorem gen_tree_spec ds t ds' : gen_tree arity full U ml ds = Some (t, ds') ->
      exists T, good t T /\ depth T <= ml /\ (full = true -> fullt ml T = true) /\
                (forall x, In x (flatten T) -> in_uniset U x).
    Proof.
      unfold gen_tree. intros H.
      destruct (grow_loop arity full U ml (S (length ds)) [(1, 0)] ds) as [[r ds1]|] eqn:E; [|discriminate].
      inversion H; subst; clear H. apply grow_loop_fits in E.
      2:{ constructor; [simpl; lia|constructor]. }
      inversion E as [|c lv st F r' HL HF HR]; subst. inversion HR; subst.
      destruct F as [|T [|? ?]]; try discriminate. inversion HF as [|x l (W & Hd & Hf & Hs) _]; subst.
      exists T. rewrite flats_cons. simpl flats. rewrite !app_nil_r, tagl_fst, tagl_snd.
      split; [split; auto|]. split; [lia|]. split; auto. rewrite Nat.sub_0_r in Hf. auto.
    Qed.
  End Fits.

  Definition in_U (U : uniset (sym := sym)) (T : tree) : Prop := forall x, In x (flatten T) -> in_uniset U x.

  Theorem full_growing_method_spec U ml ds t ds' : uniset_ok arity U ->
    full_growing_method arity U ml ds = Some (t, ds') ->
    exists T, good t T /\ depth T <= ml /\ fullt ml T = true /\ in_U U T.
  Proof.
    intros UO H. destruct (gen_tree_spec U UO ml true ds t ds' H) as (T & G & D & F & S).
    exists T. auto.
  Qed.
  Theorem growing_method_spec U ml ds t ds' : uniset_ok arity U ->
    growing_method arity U ml ds = Some (t, ds') ->
    exists T, good t T /\ depth T <= ml /\ in_U U T.
  Proof.
    intros UO H. destruct (gen_tree_spec U UO ml false ds t ds' H) as (T & G & D & F & S).
    exists T. auto.
  Qed.
  Theorem random_tree_spec U ml ds t ds' : uniset_ok arity U ->
    random_tree arity U ml ds = Some (t, ds') ->
    exists T, good t T /\ depth T <= ml /\ in_U U T.
  Proof.
    intros UO H. unfold random_tree in H. mstep H. destruct a.
    - destruct (full_growing_method_spec _ _ _ _ _ UO H) as (T & G & D & _ & S). exists T. auto.
    - eapply growing_method_spec; eauto.
  Qed.

  Lemma repeatM_Forall {A} (P : A -> Prop) (m : M A) :
    (forall ds x ds', m ds = Some (x, ds') -> P x) ->
    forall n ds l ds', repeatM n m ds = Some (l, ds') -> Forall P l /\ length l = n.
  Proof.
    intros Hm. induction n as [|n IH]; intros ds l ds' H; simpl in H.
    - mstep H. inversion H; subst. auto.
    - mstep H. mstep H. mstep H. inversion H; subst. apply IH in Hm1. destruct Hm1. split; [constructor; eauto|simpl; lia].
  Qed.

  (* randint(2, max_level, 1)[0] <= max_level whenever 2 <= max_level *)
  Lemma level_draw ml ds l ds' : valid_draws ds -> 2 <= ml ->
    randint 2 (Z.of_nat ml) 1 ds = Some (l, ds') -> Z.to_nat (nth 0 l 0%Z) <= ml.
  Proof.
    intros Hv Hml H. destruct (Nat.eq_dec ml 2) as [->|Hne].
    - cbn [randint] in H. unfold bind, ret, popU in H. destruct ds as [|[u|? ?|?] ds1]; try discriminate.
      inversion H; subst; clear H. cbn [nth].
      replace (Z.of_nat 2 - 2)%Z with 0%Z by lia.
      unfold Qfloor'. destruct u as [p q]. simpl. lia.
    - destruct (randint_range 2 (Z.of_nat ml) ltac:(lia) 1 ds l ds' Hv H) as (HL & HF).
      destruct l as [|v [|? ?]]; try discriminate. inversion HF; subst. simpl. lia.
  Qed.

  Theorem half_and_half_spec pop U ml ds l ds' : uniset_ok arity U -> valid_draws ds -> 2 <= ml ->
    half_and_half arity pop U ml ds = Some (l, ds') ->
    length l = pop /\ Forall (fun t => exists T, good t T /\ depth T <= ml /\ in_U U T) l.
  Proof.
    intros UO Hv Hml H. unfold half_and_half in H. mstep H.
    pose proof (level_draw _ _ _ _ Hv Hml Hm) as Hlv.
    destruct (repeatM_Forall (fun t => exists T, good t T /\ depth T <= Z.to_nat (nth 0 a 0%Z) /\ in_U U T)
                (random_tree arity U (Z.to_nat (nth 0 a 0%Z)))
                (fun ds x ds' Hx => random_tree_spec _ _ _ _ _ UO Hx) _ _ _ _ H) as (HF & HL).
    split; auto. eapply Forall_impl; [|exact HF]. intros t (T & G & D & S). exists T. split; auto. split; [lia|auto].
  Qed.

  (* every leaf of a full tree sits exactly at max_level *)
  Lemma fullt_leaves : forall (T : tree) d, fullt d T = true ->
    forall i s, sub_at T i = Some (Node s []) -> level_at T i = d.
  Proof.
    induction T as [s0 kids IH] using tree_ind_Forall. intros d F [|j] s H.
    - inversion H; subst. destruct d; [reflexivity|discriminate].
    - destruct (sub_at_f_inv kids j _ H) as (m & k & j' & Hn & _ & _ & Hs & Lv & _).
      rewrite level_at_Node, Lv. destruct kids as [|k0 r]; [destruct m; discriminate|].
      destruct d as [|d]; [discriminate|]. f_equal.
      exact (Forall_nth_error _ _ _ _ IH Hn d
               (proj1 (forallb_forall _ _) F k (nth_error_In _ _ Hn)) j' s Hs).
  Qed.

  (* named behaviour: the sub-term at one position is replaced by a generated tree over the
     universal set that is no deeper than the sub-term it replaces *)
  Definition is_regrow (U : uniset (sym := sym)) (T C : tree) : Prop :=
    exists i u g, sub_at T i = Some u /\ wft g = true /\ depth g <= depth u /\ in_U U g /\ C = replace_at T i g.

  Theorem growing_mutation_spec t T U proba ds c ds' :
    good t T -> uniset_ok arity U ->
    growing_mutation arity t U proba ds = Some (c, ds') ->
    exists C, good c C /\ (C = T \/ is_regrow U T C).
  Proof.
    intros G UO H. unfold growing_mutation in H. mstep H. destruct a.
    2:{ mstep H. inversion H; subst. exists T. auto. }
    mstep H. mstep H. mstep H. inversion H; subst; clear H.
    destruct (growing_method_spec _ _ _ _ _ UO Hm1) as (Gt & GG & Dg & Sg).
    destruct (concat_p_good arity _ _ _ _ _ _ G GG Hl) as (u & Hu & Go).
    exists (replace_at T a Gt). split; auto. right. exists a, u, Gt. repeat split; auto.
    - apply GG.
    - destruct G as (W & ->). simpl in Dg.
      rewrite (levels_sub_at arity T u a W Hu), list_max_levels_rec in Dg. simpl in Dg. exact Dg.
  Qed.

  Lemma regrow_graft U T C : is_regrow U T C -> is_graft (in_uniset U) T C.
  Proof.
    intros (i & u & g & Hu & _ & Dg & Sg & ->). exists i, u, g. repeat split; auto.
  Qed.

  Theorem growing_mutation_closed t U proba ds c ds' :
    wfp arity t -> uniset_ok arity U ->
    growing_mutation arity t U proba ds = Some (c, ds') ->
    wfp arity c /\ (forall x, In x (fst c) -> In x (fst t) \/ in_uniset U x) /\ depthp c <= depthp t.
  Proof.
    intros W UO H. apply (mutation_closed arity _ _ t c (regrow_graft U) W).
    intros T G. exact (growing_mutation_spec _ _ _ _ _ _ _ G UO H).
  Qed.
End I.
