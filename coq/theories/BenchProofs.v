(* BenchProofs.v — C20 (a): history independence of the benchmark problems from the decidable
   footprint conditions of Bench.v.  Everything here is for an ARBITRARY table, an
   arbitrary initial store and an arbitrary behaviour of the opaque writes; the generated table
   is plugged in by props/C20.v. *)
From TF Require Import Base Bench.
Open Scope Z_scope.

Lemma in_sel_range i l h st : in_sel i (SRange l h st) = true -> l <= i < h.
Proof.
  simpl. intros H. apply andb_prop in H as [H _]. apply andb_prop in H as [L U].
  apply Z.leb_le in L. apply Z.ltb_lt in U. lia.
Qed.

Lemma sel_overlap_sound i a b : in_sel i a = true -> in_sel i b = true -> sel_overlap a b = true.
Proof.
  destruct a as [|l1 h1 s1], b as [|l2 h2 s2]; try reflexivity.
  intros H1 H2. apply in_sel_range in H1, H2. apply Z.ltb_lt. lia.
Qed.

Lemma sels_overlap_sound addr : forall a b,
  matches addr a = true -> matches addr b = true -> sels_overlap a b = true.
Proof.
  induction addr as [|i addr IH]; intros [|sa a] [|sb b]; simpl; auto; try discriminate.
  intros H1 H2. apply andb_prop in H1 as [A1 A2]. apply andb_prop in H2 as [B1 B2].
  rewrite (sel_overlap_sound i sa sb A1 B1). simpl. apply IH; assumption.
Qed.

Lemma zrange_forall_spec P : forall n lo i,
  zrange_forall lo n P = true -> lo <= i < lo + Z.of_nat n -> P i = true.
Proof.
  induction n as [|n IH]; intros lo i H Hi.
  - simpl in Hi. lia.
  - simpl in H. apply andb_prop in H as [H0 H1].
    destruct (Z.eq_dec i lo) as [->|Hne]; [assumption|].
    apply (IH (lo + 1)); [assumption|]. rewrite Nat2Z.inj_succ in Hi. lia.
Qed.

Lemma in_sel_bounds i s lo hi : in_sel i s = true -> sel_bounds s = Some (lo, hi) -> lo <= i < hi.
Proof. destruct s as [|l h st]; [discriminate|]. intros H E. inversion E; subst. exact (in_sel_range _ _ _ _ H). Qed.

Lemma sel_inter_sub_sound i a b c :
  sel_inter_sub a b c = true -> in_sel i a = true -> in_sel i b = true -> in_sel i c = true.
Proof.
  unfold sel_inter_sub. destruct c as [|lc hc sc]; [reflexivity|].
  intros H Ha Hb.
  set (P := fun i0 => implb (in_sel i0 a && in_sel i0 b) (in_sel i0 (SRange lc hc sc))) in *.
  assert (HP : forall lo hi, zrange_forall lo (Z.to_nat (hi - lo)) P = true -> lo <= i < hi ->
                             in_sel i (SRange lc hc sc) = true).
  { intros lo hi Hz Hi. assert (Pi : P i = true).
    { apply (zrange_forall_spec P _ lo i Hz). rewrite Z2Nat.id; lia. }
    unfold P in Pi. rewrite Ha, Hb in Pi. exact Pi. }
  destruct (sel_bounds a) as [[l1 h1]|] eqn:Ea; destruct (sel_bounds b) as [[l2 h2]|] eqn:Eb.
  - pose proof (in_sel_bounds _ _ _ _ Ha Ea). pose proof (in_sel_bounds _ _ _ _ Hb Eb).
    apply (HP _ _ H). lia.
  - pose proof (in_sel_bounds _ _ _ _ Ha Ea). apply (HP _ _ H). lia.
  - pose proof (in_sel_bounds _ _ _ _ Hb Eb). apply (HP _ _ H). lia.
  - discriminate.
Qed.

(* a selector list shorter than the address behaves as if padded with SAll *)
Lemma matches_cons i addr a : matches (i :: addr) a = in_sel i (hd SAll a) && matches addr (tl a).
Proof. destruct a; reflexivity. Qed.

Lemma sels_inter_sub_cons a b sc c : sels_inter_sub a b (sc :: c) = true ->
  sel_inter_sub (hd SAll a) (hd SAll b) sc = true /\ sels_inter_sub (tl a) (tl b) c = true.
Proof. destruct a, b; simpl; try discriminate; apply andb_prop. Qed.

Lemma sels_inter_sub_sound : forall c addr a b,
  sels_inter_sub a b c = true -> matches addr a = true -> matches addr b = true ->
  matches addr c = true.
Proof.
  induction c as [|sc c IH]; intros addr a b H Ha Hb; [reflexivity|].
  destruct addr as [|i addr].
  - destruct a; [|discriminate]. destruct b; discriminate.
  - apply sels_inter_sub_cons in H as [H1 H2]. rewrite matches_cons in Ha, Hb.
    apply andb_prop in Ha as [A1 A2]. apply andb_prop in Hb as [B1 B2]. simpl.
    rewrite (sel_inter_sub_sound i _ _ sc H1 A1 B1). exact (IH addr _ _ H2 A2 B2).
Qed.

Lemma Qeqb_strict_eq a b : Qeqb_strict a b = true -> a = b.
Proof.
  destruct a as [na da], b as [nb db]. unfold Qeqb_strict; simpl. intro H.
  apply andb_prop in H as [H1 H2]. apply Z.eqb_eq in H1. apply Pos.eqb_eq in H2. subst. reflexivity.
Qed.

Lemma val_agree_const w1 w2 : val_agree w1 w2 = true ->
  exists v, c_val w1 = VConst v /\ c_val w2 = VConst v.
Proof.
  unfold val_agree. destruct (c_val w1) as [a|], (c_val w2) as [b|]; try discriminate.
  intro H. apply Qeqb_strict_eq in H. subst. exists b. split; reflexivity.
Qed.

Lemma hits_iff w c : hits w c = true <-> fst c = c_tab w /\ matches (snd c) (c_sel w) = true.
Proof. unfold hits. now rewrite andb_true_iff, Nat.eqb_eq. Qed.

Lemma hits_place_iff r c : hits_place r c = true <-> fst c = p_tab r /\ matches (snd c) (p_sel r) = true.
Proof. unfold hits_place. now rewrite andb_true_iff, Nat.eqb_eq. Qed.

(* two writes, or a write and a read place, that meet in a cell pass the overlap tests *)
Lemma hits_wov w w' c : hits w c = true -> hits w' c = true -> wov w w' = true.
Proof.
  intros H1 H2. apply hits_iff in H1 as (T1 & M1), H2 as (T2 & M2). unfold wov.
  rewrite <- T1, <- T2, Nat.eqb_refl. exact (sels_overlap_sound _ _ _ M1 M2).
Qed.

Lemma hits_touches w r c : hits w c = true -> hits_place r c = true -> touches w r = true.
Proof.
  intros H1 H2. apply hits_iff in H1 as (T1 & M1). apply hits_place_iff in H2 as (T2 & M2). unfold touches.
  rewrite <- T1, <- T2, Nat.eqb_refl. exact (sels_overlap_sound _ _ _ M1 M2).
Qed.

Lemma existsb_false_iff {A} (f : A -> bool) l : existsb f l = false <-> forall x, In x l -> f x = false.
Proof.
  rewrite <- not_true_iff_false, existsb_exists. split.
  - intros H x Hin. apply not_true_is_false. intros Hx. apply H. eauto.
  - intros H (x & Hin & Hx). rewrite (H x Hin) in Hx. discriminate.
Qed.

Section OneCell.
  Variable orc : oracle.
  Variable c : cell.

  (* if every write that hits c stores the constant V, a write list either leaves c alone or
     leaves V in it *)
  Lemma apply_writes_settled V : forall ws s,
    (forall w, In w ws -> hits w c = true -> c_val w = VConst V) ->
    apply_writes orc ws s c = if existsb (fun w => hits w c) ws then V else s c.
  Proof.
    induction ws as [|w ws IH]; intros s H; [reflexivity|].
    unfold apply_writes in *. simpl. rewrite IH by (intros w' Hin; apply H; right; assumption).
    destruct (existsb (fun w0 => hits w0 c) ws) eqn:E.
    - rewrite orb_true_r. reflexivity.
    - rewrite orb_false_r. unfold apply_write. destruct (hits w c) eqn:Hw; [|reflexivity].
      rewrite (H w (or_introl eq_refl) Hw). reflexivity.
  Qed.

  Lemma apply_writes_untouched ws s :
    (forall w, In w ws -> hits w c = false) -> apply_writes orc ws s c = s c.
  Proof.
    intros H. rewrite (apply_writes_settled 0) by (intros w Hin Hw; rewrite (H w Hin) in Hw; discriminate).
    now rewrite (proj2 (existsb_false_iff _ ws) H).
  Qed.
End OneCell.

Section History.
  Variable tbl : list entry.
  Variable dims : list Z.

  Lemma ev_writes_in_all ev : valid_event tbl dims ev -> incl (ev_writes tbl ev) (all_writes tbl dims).
  Proof.
    intros Hv w Hin. unfold all_writes. apply in_flat_map.
    destruct ev as [p|p D]; simpl in *.
    - exists (nth p tbl dummy_entry). split; [apply nth_In; assumption|].
      apply in_or_app. left. assumption.
    - destruct Hv as [Hp HD]. exists (nth p tbl dummy_entry). split; [apply nth_In; assumption|].
      apply in_or_app. right. apply in_flat_map. exists D. split; assumption.
  Qed.

  Definition ev_hits (c : cell) (ev : event) : bool := existsb (fun w => hits w c) (ev_writes tbl ev).

  Lemma run_settled orc c V : forall h s,
    Forall (valid_event tbl dims) h ->
    (forall w, In w (all_writes tbl dims) -> hits w c = true -> c_val w = VConst V) ->
    run orc tbl h s c = if existsb (ev_hits c) h then V else s c.
  Proof.
    induction h as [|ev h IH]; intros s Hv H; [reflexivity|].
    inversion Hv as [|? ? Hev Hh]; subst.
    unfold run in *. simpl. rewrite IH by assumption.
    destruct (existsb (ev_hits c) h) eqn:E.
    - rewrite orb_true_r. reflexivity.
    - rewrite orb_false_r. unfold ev_hits.
      apply apply_writes_settled. intros w Hin. apply H. apply (ev_writes_in_all ev Hev). assumption.
  Qed.

  (* a cell no write hits: [run_settled] with a vacuous hypothesis, for the value the cell holds *)
  Lemma run_untouched orc c h s :
    Forall (valid_event tbl dims) h ->
    (forall w, In w (all_writes tbl dims) -> hits w c = false) ->
    run orc tbl h s c = s c.
  Proof.
    intros Hv H. rewrite (run_settled orc c (s c)) by (auto; intros w Hin Hw; rewrite (H w Hin) in Hw; discriminate).
    now destruct (existsb (ev_hits c) h).
  Qed.

  (* if some write hits a cell the reader (p, D) reads, the conditions make every write that hits it
     store one constant V, and make the reader's own constructor or call write it *)
  Lemma reader_cover p D c w1 :
    reader_ok tbl dims p D = true -> in_reads tbl p D c = true ->
    In w1 (all_writes tbl dims) -> hits w1 c = true ->
    exists V, (forall w, In w (all_writes tbl dims) -> hits w c = true -> c_val w = VConst V) /\
              (ev_hits c (Ctor p) = true \/ ev_hits c (Call p D) = true).
  Proof.
    intros Hok Hrd Hin1 Hh1.
    unfold in_reads in Hrd. apply existsb_exists in Hrd as [r0 [Hr0 Hhr]].
    unfold reader_ok in Hok. rewrite forallb_forall in Hok.
    specialize (Hok (peval D r0) (in_map _ _ _ Hr0)). rewrite forallb_forall in Hok.
    pose proof (Hok w1 Hin1) as H1. rewrite (hits_touches w1 _ c Hh1 Hhr) in H1.
    apply andb_prop in H1 as [Hcov Hagree]. rewrite forallb_forall in Hagree.
    (* the reader's own write w' that covers c, and its constant *)
    apply existsb_exists in Hcov as [w' [Hinreq Hw']].
    apply andb_prop in Hw' as [Hw' Hsub]. apply andb_prop in Hw' as [Hva Htab]. apply Nat.eqb_eq in Htab.
    destruct (val_agree_const _ _ Hva) as [V [HV' HV1]].
    exists V. split.
    - intros w Hin Hw. specialize (Hagree w Hin).
      rewrite (hits_touches w _ c Hw Hhr), (hits_wov w1 w c Hh1 Hw) in Hagree.
      destruct (val_agree_const _ _ Hagree) as [V2 [E1 E2]]. congruence.
    - assert (Hh' : hits w' c = true).
      { apply hits_iff in Hh1 as (T1 & M1). apply hits_place_iff in Hhr as (_ & M2). apply hits_iff.
        split; [congruence|exact (sels_inter_sub_sound _ _ _ _ Hsub M1 M2)]. }
      apply in_app_or in Hinreq as [Hi|Hi]; [left|right]; apply existsb_exists; exists w'; split; assumption.
  Qed.

  Theorem reader_history_independent orc s0 h p D c :
    reader_ok tbl dims p D = true ->
    Forall (valid_event tbl dims) h -> (p < List.length tbl)%nat -> In D dims -> In (Ctor p) h ->
    in_reads tbl p D c = true ->
    run orc tbl (h ++ [Call p D]) s0 c = run orc tbl [Ctor p; Call p D] s0 c.
  Proof.
    intros Hok Hv Hp HD Hctor Hrd.
    assert (Hv1 : Forall (valid_event tbl dims) (h ++ [Call p D])).
    { apply Forall_app. split; [assumption|]. constructor; [|constructor]. simpl; auto. }
    assert (Hv2 : Forall (valid_event tbl dims) [Ctor p; Call p D]).
    { constructor; [simpl; assumption|]. constructor; [simpl; auto|constructor]. }
    destruct (existsb (fun w => hits w c) (all_writes tbl dims)) eqn:Ew.
    - apply existsb_exists in Ew as [w1 [Hin1 Hh1]].
      destruct (reader_cover p D c w1 Hok Hrd Hin1 Hh1) as (V & HallV & Hev).
      rewrite !(run_settled orc c V) by assumption.
      (* both histories contain Ctor p and Call p D, one of which hits c *)
      assert (E : forall h', In (Ctor p) h' -> In (Call p D) h' -> existsb (ev_hits c) h' = true).
      { intros h' H1 H2. apply existsb_exists. destruct Hev; [exists (Ctor p)|exists (Call p D)]; split; assumption. }
      rewrite !E; auto using in_or_app, in_eq, in_cons.
    - pose proof (proj1 (existsb_false_iff _ _) Ew) as Hno. now rewrite !run_untouched by assumption.
  Qed.

  Theorem table_history_independent orc s0 h p D c :
    table_ok tbl dims = true ->
    Forall (valid_event tbl dims) h -> (p < List.length tbl)%nat -> In D dims -> In (Ctor p) h ->
    in_reads tbl p D c = true ->
    run orc tbl (h ++ [Call p D]) s0 c = run orc tbl [Ctor p; Call p D] s0 c.
  Proof.
    intros Hok. unfold table_ok in Hok. rewrite forallb_forall in Hok.
    intros Hv Hp HD Hc Hr.
    assert (Hin : In p (seq 0 (List.length tbl))) by (apply in_seq; lia).
    specialize (Hok p Hin). rewrite forallb_forall in Hok.
    apply reader_history_independent; auto.
  Qed.

  Lemma args_untouched_entry p :
    args_untouched tbl = true -> (p < List.length tbl)%nat -> e_arg (nth p tbl dummy_entry) = [].
  Proof.
    intros H Hp. unfold args_untouched in H. rewrite forallb_forall in H.
    specialize (H (nth p tbl dummy_entry) (nth_In _ _ Hp)).
    destruct (e_arg (nth p tbl dummy_entry)); [reflexivity|discriminate].
  Qed.

  Theorem table_noise_documented names e :
    noise_documented tbl names = true -> In e tbl ->
    (e_noisy e = true <-> In (e_name e) names).
  Proof.
    intros H Hin. unfold noise_documented in H. rewrite forallb_forall in H.
    specialize (H e Hin). apply eqb_prop in H. rewrite H. split.
    - intro E. apply existsb_exists in E as [n [Hn Heq]]. apply String.eqb_eq in Heq. subst. assumption.
    - intro Hn. apply existsb_exists. exists (e_name e). split; [assumption|apply String.eqb_refl].
  Qed.
End History.

(* an opaque value agrees with nothing *)
Lemma val_agree_opaque_l w1 w2 : c_val w1 = VOpaque -> val_agree w1 w2 = false.
Proof. unfold val_agree. intros ->. reflexivity. Qed.
